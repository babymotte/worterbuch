From WB Require Import Base.Str Base.StrFacts Base.Json.

Lemma json_eqb_eq a : forall b, json_eqb a b = true <-> a = b.
Proof.
  induction a as [| x | x | x | l IH | l IH] using json_ind'; intros [| y | y | y | m | m];
    cbn [json_eqb]; try (split; congruence).
  - destruct (Bool.eqb_spec x y); split; congruence.
  - destruct (str_eqb_spec x y); split; congruence.
  - destruct (str_eqb_spec x y); split; congruence.
  - revert m. induction IH as [|a l Ha Hl IHl]; intros [|b m]; try (split; congruence).
    rewrite andb_true_iff, Ha, IHl. split; [intros [-> E]; congruence|intros E; split; congruence].
  - revert m. induction IH as [|[k a] l Ha Hl IHl]; intros [|[k' b] m]; try (split; congruence).
    cbn [snd] in Ha.
    rewrite !andb_true_iff, Ha, IHl, str_eqb_eq. split; [intros [[-> ->] E]; congruence|intros E; repeat split; congruence].
Qed.

Lemma json_eqb_refl a : json_eqb a a = true.
Proof. now apply json_eqb_eq. Qed.

Lemma json_eqb_neq a b : json_eqb a b = false <-> a <> b.
Proof. rewrite <- json_eqb_eq. destruct (json_eqb a b); split; congruence. Qed.
