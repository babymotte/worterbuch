(* Facts about lists that Coq 8.16's List.v lacks: [NoDup] of an append and of a [flat_map], [filter] under [map] and [Forall], and
   [last_of f], the value of [f] at the last element of a list where it has one. *)
From Coq Require Import List.
Import ListNotations.

Lemma app_cons_ne {A} (a : list A) x b : a <> a ++ x :: b.
Proof. induction a as [|y a IH]; [discriminate|]. intros [= E]. exact (IH E). Qed.

Lemma NoDup_app_inv {A} (a b : list A) : NoDup (a ++ b) -> NoDup a /\ NoDup b /\ (forall x, In x a -> ~ In x b).
Proof.
  induction a as [|x a IH]; cbn; intros H; [repeat split; [constructor|exact H|intros ? []]|].
  apply NoDup_cons_iff in H as (Hn & Hd). destruct (IH Hd) as (Ha & Hb & Hab). repeat split.
  - constructor; [|exact Ha]. intros Hin. apply Hn, in_or_app. now left.
  - exact Hb.
  - intros y [<-|Hy] Hyb; [apply Hn, in_or_app; now right|exact (Hab y Hy Hyb)].
Qed.

Lemma NoDup_app_intro {A} (a b : list A) : NoDup a -> NoDup b -> (forall x, In x a -> ~ In x b) -> NoDup (a ++ b).
Proof.
  induction a as [|x a IH]; cbn; intros Ha Hb Hab; [exact Hb|].
  apply NoDup_cons_iff in Ha as (Hn & Hd). constructor.
  - intros Hin. apply in_app_or in Hin as [Hin|Hin]; [contradiction|]. exact (Hab x (or_introl eq_refl) Hin).
  - apply IH; [exact Hd|exact Hb|]. intros y Hy. apply Hab. now right.
Qed.

Lemma NoDup_snoc {A} (l : list A) x : NoDup l -> ~ In x l -> NoDup (l ++ [x]).
Proof.
  intros Hl Hx. apply NoDup_app_intro; [exact Hl|repeat constructor; intros []|].
  intros y Hy [<-|[]]. contradiction.
Qed.

Lemma NoDup_map_filter {A B} (f : A -> B) g l : NoDup (map f l) -> NoDup (map f (filter g l)).
Proof.
  induction l as [|x l IH]; cbn; intros H; [constructor|]. apply NoDup_cons_iff in H as (Hn & Hd).
  destruct (g x); cbn; [|now apply IH]. constructor; [|now apply IH].
  intros Hin. apply Hn. apply in_map_iff in Hin as (y & E & Hy). apply filter_In in Hy as [Hy _].
  rewrite <- E. now apply in_map.
Qed.

Lemma NoDup_map_eq {A B} (f : A -> B) l a b : NoDup (map f l) -> In a l -> In b l -> f a = f b -> a = b.
Proof.
  induction l as [|x l IH]; cbn; [intros _ []|]. intros Hnd Ha Hb E.
  apply NoDup_cons_iff in Hnd as (Hx & Hnd). destruct Ha as [->|Ha], Hb as [->|Hb]; [reflexivity| | |now apply IH].
  - exfalso. apply Hx. rewrite E. now apply in_map.
  - exfalso. apply Hx. rewrite <- E. now apply in_map.
Qed.

Lemma Forall_filter {A} (P : A -> Prop) g l : Forall P l -> Forall P (filter g l).
Proof. rewrite !Forall_forall. intros H x Hx. apply filter_In in Hx as [Hx _]. now apply H. Qed.

Lemma filter_all {A} (g : A -> bool) l : (forall x, In x l -> g x = true) -> filter g l = l.
Proof.
  induction l as [|x l IH]; cbn; intros H; [reflexivity|]. rewrite (H x (or_introl eq_refl)). f_equal.
  apply IH. intros y Hy. apply H. now right.
Qed.

Lemma filter_none {A} (g : A -> bool) l : (forall x, In x l -> g x = false) -> filter g l = [].
Proof.
  induction l as [|x l IH]; cbn; intros H; [reflexivity|]. rewrite (H x (or_introl eq_refl)).
  apply IH. intros y Hy. apply H. now right.
Qed.

Lemma filter_unique {A} (p : A -> bool) a l :
  NoDup l -> In a l -> p a = true -> (forall x, In x l -> p x = true -> x = a) -> filter p l = [a].
Proof.
  induction l as [|y l IH]; intros Hnd Hin Ha Hu; [destruct Hin|].
  apply NoDup_cons_iff in Hnd as (Hy & Hnd). cbn [filter]. destruct Hin as [->|Hin].
  - rewrite Ha. f_equal. apply filter_none. intros x Hx. destruct (p x) eqn:E; [|reflexivity].
    rewrite (Hu x (or_intror Hx) E) in Hx. contradiction.
  - destruct (p y) eqn:E; [rewrite (Hu y (or_introl eq_refl) E) in Hy; contradiction|].
    apply IH; try assumption. intros x Hx. apply Hu. now right.
Qed.

Lemma flat_map_NoDup {A B} (f : A -> list B) l :
  NoDup (flat_map f l) ->
  forall a b, In a l -> In b l -> NoDup (f a) /\ (a <> b -> forall x, In x (f a) -> ~ In x (f b)).
Proof.
  induction l as [|y l IH]; cbn; intros Hnd a b Ha Hb; [contradiction|].
  apply NoDup_app_inv in Hnd as (Hy & Hrest & Hdis).
  assert (Hin : forall c x, In c l -> In x (f c) -> In x (flat_map f l)) by (intros c x Hc Hx; apply in_flat_map; now exists c).
  destruct Ha as [->|Ha], Hb as [->|Hb].
  - split; [exact Hy|congruence].
  - split; [exact Hy|]. intros _ x Hxa Hxb. exact (Hdis x Hxa (Hin b x Hb Hxb)).
  - split; [exact (proj1 (IH Hrest a a Ha Ha))|]. intros _ x Hxa Hxb. exact (Hdis x Hxb (Hin a x Ha Hxa)).
  - exact (IH Hrest a b Ha Hb).
Qed.

Fixpoint last_of {A X} (f : A -> option X) (l : list A) : option X :=
  match l with
  | [] => None
  | a :: r => match last_of f r with Some x => Some x | None => f a end
  end.

Lemma last_of_app {A X} (f : A -> option X) a b :
  last_of f (a ++ b) = match last_of f b with Some x => Some x | None => last_of f a end.
Proof.
  induction a as [|x a IH]; cbn [app last_of]; [now destruct (last_of f b)|].
  rewrite IH. now destruct (last_of f b).
Qed.

Lemma last_of_spec {A X} (f : A -> option X) l :
  match last_of f l with
  | Some x => exists a, In a l /\ f a = Some x
  | None => forall a, In a l -> f a = None
  end.
Proof.
  induction l as [|a l IH]; cbn [last_of]; [intros a []|].
  destruct (last_of f l) as [x|]; [destruct IH as (b & Hb & E); exists b; split; [now right|exact E]|].
  destruct (f a) as [x|] eqn:E; [exists a; split; [now left|exact E]|].
  intros b [<-|Hb]; [exact E|now apply IH].
Qed.

Lemma last_of_none {A X} (f : A -> option X) l : Forall (fun a => f a = None) l -> last_of f l = None.
Proof. induction 1 as [|a l Ha _ IH]; cbn [last_of]; [reflexivity|now rewrite IH]. Qed.

Lemma last_of_flat_map {A B X} (f : A -> option X) (g : B -> list A) (h : B -> bool) x l :
  (forall b, In b l -> last_of f (g b) = if h b then Some x else None) ->
  last_of f (flat_map g l) = if existsb h l then Some x else None.
Proof.
  induction l as [|b l IH]; intros H; [reflexivity|]. cbn [flat_map existsb].
  rewrite last_of_app, IH by (intros; apply H; now right). rewrite (H b) by now left.
  destruct (existsb h l); [now rewrite Bool.orb_true_r|now rewrite Bool.orb_false_r].
Qed.

Lemma fold_left_last {S A X} (step : S -> A -> S) (get : S -> X) (f : A -> option X) :
  (forall s a, get (step s a) = match f a with Some x => x | None => get s end) ->
  forall l s, get (fold_left step l s) = match last_of f l with Some x => x | None => get s end.
Proof.
  intros H. induction l as [|a l IH]; intros s; [reflexivity|]. cbn [fold_left last_of]. rewrite IH.
  destruct (last_of f l); [reflexivity|apply H].
Qed.
