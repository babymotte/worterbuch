(* Strings and key paths: their equality tests decide equality, and [split] and [join] (Base/Str.v) undo each
   other -- [join] after [split] always, [split] after [join] on segments that do not contain the separator. *)
From WB Require Import Base.Str.

(* [str_eqb], [path_eqb] and every other equality test on lists written out as a Fixpoint is this one
   at the test of its elements, up to conversion *)
Section list_eqb.
  Context {A : Type} (eqb : A -> A -> bool).
  Fixpoint list_eqb (a b : list A) : bool :=
    match a, b with
    | [], [] => true
    | x :: a', y :: b' => eqb x y && list_eqb a' b'
    | _, _ => false
    end.

  Lemma list_eqb_spec :
    (forall x y, reflect (x = y) (eqb x y)) -> forall a b, reflect (a = b) (list_eqb a b).
  Proof.
    intros H. induction a as [|x a IH]; intros [|y b]; cbn; try (constructor; congruence).
    destruct (H x y) as [->|Hn]; cbn.
    - destruct (IH b) as [->|Hn]; constructor; congruence.
    - constructor; congruence.
  Qed.
End list_eqb.

Lemma str_eqb_spec a b : reflect (a = b) (str_eqb a b).
Proof. exact (list_eqb_spec N.eqb N.eqb_spec a b). Qed.

Lemma str_eqb_refl a : str_eqb a a = true.
Proof. destruct (str_eqb_spec a a); congruence. Qed.

Lemma str_eqb_eq a b : str_eqb a b = true <-> a = b.
Proof. destruct (str_eqb_spec a b); split; congruence. Qed.

Lemma str_eqb_neq a b : str_eqb a b = false <-> a <> b.
Proof. destruct (str_eqb_spec a b); split; congruence. Qed.

Lemma str_eqb_sym a b : str_eqb a b = str_eqb b a.
Proof. destruct (str_eqb_spec a b), (str_eqb_spec b a); congruence. Qed.

Lemma path_eqb_spec a b : reflect (a = b) (path_eqb a b).
Proof. exact (list_eqb_spec str_eqb str_eqb_spec a b). Qed.

Lemma path_eqb_refl a : path_eqb a a = true.
Proof. destruct (path_eqb_spec a a); congruence. Qed.

Lemma split_aux_nonempty sep s cur : split_aux sep s cur <> [].
Proof.
  revert cur; induction s as [|c s IH]; intros cur; cbn; try congruence.
  destruct (N.eqb c sep); [congruence | apply IH].
Qed.

Lemma split_aux_join sep s cur :
  join sep (split_aux sep s cur) = rev cur ++ s.
Proof.
  revert cur; induction s as [|c s IH]; intros cur; cbn.
  - now rewrite app_nil_r.
  - destruct (N.eqb_spec c sep) as [->|Hn].
    + specialize (IH []). cbn in IH.
      destruct (split_aux sep s []) eqn:E.
      * exfalso. now apply (split_aux_nonempty sep s []).
      * cbn. cbn in IH. rewrite IH. reflexivity.
    + rewrite IH. cbn. now rewrite <- app_assoc.
Qed.

Lemma join_split sep s : join sep (split sep s) = s.
Proof. unfold split. now rewrite split_aux_join. Qed.

Definition no_sep (sep : N) (x : str) : Prop := ~ In sep x.

Lemma split_aux_app_nosep sep x s cur :
  no_sep sep x -> split_aux sep (x ++ s) cur = split_aux sep s (rev x ++ cur).
Proof.
  revert cur; induction x as [|c x IH]; intros cur Hx; cbn; [reflexivity|].
  destruct (N.eqb_spec c sep) as [->|Hn].
  - exfalso; apply Hx; now left.
  - rewrite IH.
    + now rewrite <- app_assoc.
    + intros H; apply Hx; now right.
Qed.

Lemma split_join sep l :
  l <> [] -> Forall (no_sep sep) l -> split sep (join sep l) = l.
Proof.
  unfold split.
  induction l as [|x l IH]; intros Hne Hall; [congruence|].
  inversion Hall as [|? ? Hx Hl]; subst.
  destruct l as [|y l].
  - cbn. rewrite <- (app_nil_r x) at 1. rewrite split_aux_app_nosep by assumption.
    cbn. now rewrite app_nil_r, rev_involutive.
  - change (join sep (x :: y :: l)) with (x ++ sep :: join sep (y :: l)).
    rewrite split_aux_app_nosep by assumption.
    cbn [split_aux]. rewrite N.eqb_refl. rewrite app_nil_r, rev_involutive.
    f_equal. apply IH; [congruence | assumption].
Qed.

Lemma split_aux_all_nosep sep s : forall cur,
  no_sep sep cur -> Forall (no_sep sep) (split_aux sep s cur).
Proof.
  induction s as [|c s IH]; intros cur Hc; cbn.
  - constructor; [|constructor]. intros H; apply Hc. now apply in_rev.
  - destruct (N.eqb_spec c sep) as [->|Hn].
    + constructor; [intros H; apply Hc; now apply in_rev|]. apply IH. intros [].
    + apply IH. intros [H|H]; [congruence | now apply Hc].
Qed.

Lemma split_aux_nosep sep s cur :
  Forall (no_sep sep) (tl (split_aux sep s cur)).
Proof.
  revert cur; induction s as [|c s IH]; intros cur; cbn; [constructor|].
  destruct (N.eqb c sep); [|apply IH]. apply split_aux_all_nosep. intros [].
Qed.

Lemma split_nosep sep s : Forall (no_sep sep) (split sep s).
Proof. apply split_aux_all_nosep. intros []. Qed.

Lemma split_nonempty sep s : split sep s <> [].
Proof. apply split_aux_nonempty. Qed.

Lemma no_sep_forallb sep x : forallb (fun a => negb (N.eqb a sep)) x = true -> no_sep sep x.
Proof. intros H Hin. rewrite forallb_forall in H. specialize (H _ Hin). now rewrite N.eqb_refl in H. Qed.

Lemma starts_with_app p : forall k, starts_with p k = true -> exists r, k = p ++ r.
Proof.
  induction p as [|x p IH]; intros k H; [now exists k|].
  destruct k as [|y k]; [discriminate|]. cbn in H. apply andb_prop in H as [Hx H].
  apply N.eqb_eq in Hx. subst y. destruct (IH k H) as [r ->]. now exists r.
Qed.
