(* C16: the aggregator neither loses nor reorders events, and no event outlives the interval. *)
From WB Require Import Base.Str Base.StrFacts Base.ListFacts Base.Json Model.Aggregator.
From Coq Require Import Lia.

(* an event as the un-aggregated subscription would deliver it: (deleted?, key, value) *)
Definition ev := (bool * str * json)%type.
Definition evs_of (p : pev) : list ev :=
  match p with
  | AKvs l => map (fun kv => (false, fst kv, snd kv)) l
  | ADel l => map (fun kv => (true, fst kv, snd kv)) l
  end.
Definition flat (l : list pev) : list ev := flat_map evs_of l.
Definition pend (a : agg) : list ev :=
  map (fun e => (false, b_key e, b_val e)) (set_buf a) ++ map (fun e => (true, b_key e, b_val e)) (del_buf a).
Definition act_evs (x : action) : list ev := match x with Arrive p => evs_of p | Advance _ => [] end.

Definition keys_of (b : list bent) : list str := map b_key b.

Definition AInv (a : agg) : Prop :=
  (set_buf a = [] \/ del_buf a = []) /\ NoDup (keys_of (set_buf a)) /\ NoDup (keys_of (del_buf a)).

Definition wf_pev (p : pev) : Prop :=
  match p with AKvs l | ADel l => NoDup (map fst l) end.
Definition wf_action (x : action) : Prop := match x with Arrive p => wf_pev p | Advance _ => True end.

Lemma buf_insert_fresh k v t b : ~ In k (keys_of b) -> buf_insert k v t b = b ++ [BEnt k v t].
Proof.
  induction b as [|e b IH]; cbn; [reflexivity|]. intros H.
  destruct (str_eqb_spec (b_key e) k) as [E|Hn]; [exfalso; apply H; now left|].
  rewrite IH; [reflexivity|]. intros Hin. apply H. now right.
Qed.

(* arriving keys that are distinct and none of them buffered: one duplicate-free list with the buffer's keys *)
Lemma fold_insert_fresh t kvs : forall b,
  NoDup (keys_of b ++ map fst kvs) ->
  fold_left (fun b kv => buf_insert (fst kv) (snd kv) t b) kvs b =
  b ++ map (fun kv => BEnt (fst kv) (snd kv) t) kvs.
Proof.
  induction kvs as [|[k v] kvs IH]; intros b Hnd; cbn; [now rewrite app_nil_r|].
  rewrite buf_insert_fresh.
  - rewrite IH; [now rewrite <- app_assoc|]. unfold keys_of. now rewrite map_app, <- app_assoc.
  - intros Hin. apply NoDup_remove_2 in Hnd. apply Hnd, in_or_app. now left.
Qed.

Lemma existsb_has_false kvs b :
  existsb (fun kv : str * json => has_key (fst kv) b) kvs = false ->
  forall k, In k (keys_of b) -> ~ In k (map fst kvs).
Proof.
  intros H k Hb Hin. apply in_map_iff in Hin as (kv & <- & Hin). apply in_map_iff in Hb as (e & Ee & He).
  apply Bool.not_true_iff_false in H. apply H, existsb_exists. exists kv. split; [exact Hin|].
  apply existsb_exists. exists e. split; [exact He|]. apply str_eqb_eq, Ee.
Qed.

Lemma flat_send a : flat (snd (send_current_state a)) = pend a.
Proof.
  unfold send_current_state, flat, pend, out_of. cbn [snd].
  destruct (set_buf a) as [|e1 b1], (del_buf a) as [|e2 b2]; cbn [flat_map evs_of app];
    rewrite ?map_map, ?app_nil_r; reflexivity.
Qed.

(* arrive in two stages: the trigger task is armed, then the event is filed in the buffer of its kind ([d]: deleted) *)
Definition arm (a : agg) : agg :=
  if scheduled a then a else Agg (set_buf a) (del_buf a) true (timers a ++ [now a + interval a]) (now a) (interval a).

Definition own (d : bool) (a : agg) : list bent := if d then del_buf a else set_buf a.
Definition with_own (d : bool) (b : list bent) (a : agg) : agg :=
  if d then Agg (set_buf a) b (scheduled a) (timers a) (now a) (interval a)
  else Agg b (del_buf a) (scheduled a) (timers a) (now a) (interval a).

Definition file (a : agg) (d : bool) (kvs : list (str * json)) : agg * list pev :=
  let flush := (match own (negb d) a with [] => false | _ => true end) || already_buffered a kvs in
  let a2 := if flush then fst (send_current_state a) else a in
  (with_own d (fold_left (fun b kv => buf_insert (fst kv) (snd kv) (now a) b) kvs (own d a2)) a2,
   if flush then snd (send_current_state a) else []).

Definition is_del (p : pev) : bool := match p with AKvs _ => false | ADel _ => true end.
Definition kvs_of (p : pev) : list (str * json) := match p with AKvs l | ADel l => l end.

Lemma arrive_eq a p : arrive a p = file (arm a) (is_del p) (kvs_of p).
Proof. unfold arrive, file. fold (arm a). destruct p; cbn [is_del kvs_of own negb]; now destruct (_ || _). Qed.

Lemma evs_of_tag p : evs_of p = map (fun kv => (is_del p, fst kv, snd kv)) (kvs_of p).
Proof. now destruct p. Qed.

Lemma arm_bufs a : set_buf (arm a) = set_buf a /\ del_buf (arm a) = del_buf a.
Proof. unfold arm. now destruct (scheduled a). Qed.

Lemma AInv_with d b a : own (negb d) a = [] -> NoDup (keys_of b) -> AInv (with_own d b a).
Proof. destruct d; cbn [own negb with_own]; intros E H; unfold AInv; cbn [set_buf del_buf]; rewrite E; repeat split; auto; constructor. Qed.

Lemma pend_with d b a : own (negb d) a = [] -> pend (with_own d b a) = map (fun e => (d, b_key e, b_val e)) b.
Proof. destruct d; cbn [own negb with_own]; intros E; unfold pend; cbn [set_buf del_buf]; rewrite E; [reflexivity|apply app_nil_r]. Qed.

Lemma pend_own d a : own (negb d) a = [] -> pend a = map (fun e => (d, b_key e, b_val e)) (own d a).
Proof. destruct d; cbn [own negb]; intros E; unfold pend; rewrite E; [reflexivity|apply app_nil_r]. Qed.

Lemma file_content a d kvs :
  AInv a -> NoDup (map fst kvs) ->
  AInv (fst (file a d kvs)) /\
  flat (snd (file a d kvs)) ++ pend (fst (file a d kvs)) = pend a ++ map (fun kv => (d, fst kv, snd kv)) kvs.
Proof.
  intros HI Hnd. unfold file. destruct (_ || _) eqn:Ef; cbn [fst snd].
  - (* flush first: the event starts an empty buffer *)
    assert (E : forall d', own d' (fst (send_current_state a)) = []) by now intros [].
    rewrite E, fold_insert_fresh by exact Hnd. cbn [app]. split.
    + apply AInv_with; [apply E|]. unfold keys_of. now rewrite map_map.
    + now rewrite flat_send, pend_with, map_map by apply E.
  - (* append: the other buffer is empty, none of the keys is buffered *)
    apply orb_false_iff in Ef as [Eo Eb].
    assert (Ho : own (negb d) a = []) by (destruct (own (negb d) a); [reflexivity|discriminate]).
    assert (Hall : NoDup (keys_of (own d a) ++ map fst kvs)).
    { apply NoDup_app_intro; [destruct HI as (_ & H1 & H2); destruct d; assumption|exact Hnd|].
      apply existsb_has_false. apply orb_false_iff in Eb. destruct d; apply Eb. }
    rewrite fold_insert_fresh by exact Hall. cbn [app]. split.
    + apply AInv_with; [exact Ho|]. unfold keys_of. now rewrite map_app, map_map.
    + now rewrite (pend_with d _ a Ho), (pend_own d a Ho), map_app, map_map.
Qed.

Lemma arrive_content a p :
  AInv a -> wf_pev p ->
  AInv (fst (arrive a p)) /\
  flat (snd (arrive a p)) ++ pend (fst (arrive a p)) = pend a ++ evs_of p.
Proof.
  intros HI Hwf. destruct (arm_bufs a) as [Es Ed].
  assert (Hp : pend (arm a) = pend a) by (unfold pend; now rewrite Es, Ed).
  rewrite arrive_eq, evs_of_tag, <- Hp. apply file_content; [|now destruct p]. unfold AInv. now rewrite Es, Ed.
Qed.

Lemma flat_app l1 l2 : flat (l1 ++ l2) = flat l1 ++ flat l2.
Proof. unfold flat. apply flat_map_app. Qed.

Lemma fire_S n a :
  fire (S n) a = (fst (fire n (fst (send_current_state a))), snd (send_current_state a) ++ snd (fire n (fst (send_current_state a)))).
Proof. cbn [fire]. destruct (send_current_state a) as [a1 o1]. cbn [fst snd]. now destruct (fire n a1). Qed.

Lemma fire_content n : forall a,
  AInv a -> AInv (fst (fire n a)) /\ flat (snd (fire n a)) ++ pend (fst (fire n a)) = pend a.
Proof.
  induction n as [|n IH]; intros a HI; [split; [assumption|reflexivity]|]. rewrite fire_S. cbn [fst snd].
  destruct (IH (fst (send_current_state a))) as [HI2 Hc]; [repeat split; [now left|constructor|constructor]|].
  split; [exact HI2|]. rewrite flat_app, <- app_assoc, Hc. cbn [pend send_current_state fst set_buf del_buf map app].
  rewrite app_nil_r. apply flat_send.
Qed.

Lemma step_content a x :
  AInv a -> wf_action x ->
  AInv (fst (agg_step a x)) /\
  flat (snd (agg_step a x)) ++ pend (fst (agg_step a x)) = pend a ++ act_evs x.
Proof.
  intros HI Hwf. destruct x as [p|dt]; cbn [agg_step act_evs].
  - now apply arrive_content.
  - unfold advance. rewrite app_nil_r.
    match goal with |- context [fire ?n ?b] => destruct (fire_content n b HI) as [H1 H2] end.
    split; [exact H1|]. rewrite H2. reflexivity.
Qed.

(* C16: the batches, concatenated in arrival order, followed by what is still buffered, are exactly the
   events that arrived, in the order they arrived -- for every schedule of arrivals and timer firings *)
Theorem run_content xs : forall a,
  AInv a -> Forall wf_action xs ->
  flat (concat (agg_run a xs)) ++ pend (agg_final a xs) = pend a ++ flat_map act_evs xs.
Proof.
  induction xs as [|x xs IH]; intros a HI Hwf.
  - cbn. now rewrite app_nil_r.
  - inversion Hwf as [|? ? Hx Hxs]; subst.
    destruct (step_content a x HI Hx) as [HI' Hc].
    cbn [agg_run]. rewrite (surjective_pairing (agg_step a x)). cbn [concat flat_map].
    unfold agg_final in *. cbn [fold_left].
    rewrite flat_app, <- app_assoc. rewrite (IH _ HI' Hxs).
    rewrite app_assoc, Hc. now rewrite <- app_assoc.
Qed.

Definition bufs (a : agg) : list bent := set_buf a ++ del_buf a.

(* every buffered event is covered by a sleeping trigger task that is due no later than the event's
   arrival plus the interval *)
Definition DInv (a : agg) : Prop :=
  (forall e, In e (bufs a) -> exists t, In t (timers a) /\ t <= b_at e + interval a) /\
  (scheduled a = true -> exists t, In t (timers a) /\ t <= now a + interval a) /\
  (forall e, In e (bufs a) -> b_at e <= now a).

Definition covered (ts : list N) (nw iv t : N) : Prop := t <= nw /\ exists tm, In tm ts /\ tm <= t + iv.

Lemma DInv_covered a :
  DInv a <->
  Forall (fun e => covered (timers a) (now a) (interval a) (b_at e)) (bufs a) /\
  (scheduled a = true -> covered (timers a) (now a) (interval a) (now a)).
Proof.
  unfold DInv, covered. rewrite Forall_forall. split.
  - intros (H1 & H2 & H3). split; [intros e He; split; [now apply H3|now apply H1]|]. intros Hs. split; [apply N.le_refl|now apply H2].
  - intros (H1 & H2). repeat split; [intros e He; now apply H1|intros Hs; now apply H2|intros e He; now apply H1].
Qed.

(* a buffer keeps the arrival times it has and gains at most the time of insertion *)
Lemma buf_insert_all (P : N -> Prop) k v t b :
  Forall (fun e => P (b_at e)) b -> P t -> Forall (fun e => P (b_at e)) (buf_insert k v t b).
Proof.
  intros Hb Ht. induction Hb as [|e b He Hb IH]; cbn; [now repeat constructor|].
  destruct (str_eqb (b_key e) k); constructor; assumption.
Qed.

Lemma fold_insert_all (P : N -> Prop) t kvs : forall b,
  Forall (fun e => P (b_at e)) b -> P t ->
  Forall (fun e => P (b_at e)) (fold_left (fun b kv => buf_insert (fst kv) (snd kv) t b) kvs b).
Proof. induction kvs as [|[k v] kvs IH]; intros b Hb Ht; [exact Hb|]. cbn. apply IH; [now apply buf_insert_all|exact Ht]. Qed.

Lemma arm_delay a : DInv a -> DInv (arm a) /\ scheduled (arm a) = true /\ interval (arm a) = interval a.
Proof.
  intros (Hcov & Hsch & Hat). unfold arm. destruct (scheduled a) eqn:E; [repeat split; auto|].
  repeat split; cbn [timers now interval].
  - intros e He. destruct (Hcov e He) as (t & Ht & Hle). exists t. split; [apply in_app_iff; now left|exact Hle].
  - intros _. exists (now a + interval a). split; [apply in_app_iff; right; now left|lia].
  - exact Hat.
Qed.

Lemma Forall_bufs_with (P : bent -> Prop) d b a : Forall P b -> Forall P (own (negb d) a) -> Forall P (bufs (with_own d b a)).
Proof. destruct d; unfold bufs; cbn [with_own set_buf del_buf own negb]; intros; apply Forall_app; auto. Qed.

Lemma Forall_own (P : bent -> Prop) d a : Forall P (bufs a) -> Forall P (own d a).
Proof. unfold bufs. rewrite Forall_app. destruct d; cbn [own]; tauto. Qed.

Lemma file_delay a d kvs :
  DInv a -> scheduled a = true ->
  DInv (fst (file a d kvs)) /\ interval (fst (file a d kvs)) = interval a.
Proof.
  rewrite !DInv_covered. intros (Hc & Hsch) Hs. specialize (Hsch Hs). unfold file. cbn [fst].
  set (a2 := if _ || _ then fst (send_current_state a) else a). set (b := fold_left _ kvs _).
  (* flushed or not, what is buffered was buffered before *)
  assert (K : forall d', Forall (fun e => covered (timers a) (now a) (interval a) (b_at e)) (own d' a2)).
  { intros d'. unfold a2. destruct (_ || _); [destruct d'; constructor|now apply Forall_own]. }
  assert (P : timers (with_own d b a2) = timers a /\ now (with_own d b a2) = now a /\ interval (with_own d b a2) = interval a)
    by (unfold a2; destruct d, (_ || _); cbn [with_own timers now interval send_current_state fst]; auto).
  destruct P as (Pt & Pn & Pi). rewrite Pt, Pn, Pi. split; [|auto]. split; [|intros _; exact Hsch].
  apply Forall_bufs_with; [|apply K]. apply fold_insert_all; [apply K|exact Hsch].
Qed.

Lemma arrive_delay a p :
  DInv a -> DInv (fst (arrive a p)) /\ interval (fst (arrive a p)) = interval a.
Proof.
  intros HD. rewrite arrive_eq. destruct (arm_delay a HD) as (H1 & Hs & Hi).
  destruct (file_delay (arm a) (is_del p) (kvs_of p) H1 Hs) as (H2 & Hi2). split; [exact H2|congruence].
Qed.

Lemma fire_empties n : forall a, bufs (fst (fire (S n) a)) = [] /\ scheduled (fst (fire (S n) a)) = false.
Proof. induction n as [|n IH]; intros a; rewrite fire_S; cbn [fst]; [cbn; auto|apply IH]. Qed.

Lemma fire_keeps n : forall a,
  now (fst (fire n a)) = now a /\ interval (fst (fire n a)) = interval a.
Proof.
  induction n as [|n IH]; intros a; [cbn; auto|]. rewrite fire_S. exact (IH (fst (send_current_state a))).
Qed.

(* time passes: afterwards no buffered event is older than the interval *)
Theorem advance_delay a dt :
  DInv a ->
  let a' := fst (advance a dt) in
  DInv a' /\ interval a' = interval a /\ now a' = now a + dt /\
  forall e, In e (bufs a') -> now a' < b_at e + interval a'.
Proof.
  intros (Hcov & Hsch & Hat) a'. subst a'. unfold advance.
  set (T := now a + dt).
  set (due := filter (fun x => N.leb x T) (timers a)).
  set (rest := filter (fun x => negb (N.leb x T)) (timers a)).
  set (b := Agg (set_buf a) (del_buf a) (scheduled a) rest T (interval a)).
  destruct (fire_keeps (length due) b) as (Kn & Ki).
  destruct (length due) as [|n] eqn:El.
  - (* nothing was due: every timer is still sleeping *)
    cbn [fire fst]. assert (Hrest : forall t, In t (timers a) -> In t rest /\ T < t).
    { intros t Ht. destruct (N.leb t T) eqn:E.
      - assert (Hd : In t due) by (apply filter_In; split; assumption). destruct due; [destruct Hd|discriminate El].
      - split; [apply filter_In; split; [exact Ht|now rewrite E]|now apply N.leb_gt]. }
    repeat split; cbn [bufs set_buf del_buf timers now interval scheduled b].
    + intros e He. destruct (Hcov e He) as (t & Ht & Hle). exists t. split; [apply Hrest; assumption|assumption].
    + intros Hs. destruct (Hsch Hs) as (t & Ht & Hle). exists t. split; [apply Hrest; assumption|unfold T; lia].
    + intros e He. specialize (Hat e He). unfold T. lia.
    + intros e He. destruct (Hcov e He) as (t & Ht & Hle). destruct (Hrest t Ht) as [_ Hgt]. lia.
  - (* a timer fired: everything buffered went out *)
    destruct (fire_empties n b) as [Hb Hs].
    rewrite Kn, Ki. cbn [b now interval].
    repeat split; try rewrite Hb; try (intros e []); try reflexivity.
    rewrite Hs. discriminate.
Qed.

Lemma DInv_init d : DInv (agg_init d).
Proof. repeat split; cbn; try (intros e []); discriminate. Qed.

(* all schedules: the invariant holds from the start (DInv_init), so after every passing of time (advance_delay)
   nothing that arrived an interval ago or earlier is still waiting in the server *)
Theorem run_delay xs : forall a,
  DInv a -> DInv (agg_final a xs) /\ interval (agg_final a xs) = interval a.
Proof.
  induction xs as [|x xs IH]; intros a HD; [cbn; auto|].
  unfold agg_final in *. cbn [fold_left]. destruct x as [p|dt]; cbn [agg_step].
  - destruct (arrive_delay a p HD) as (H1 & H2). destruct (IH _ H1) as [H3 H4]. split; [assumption|congruence].
  - destruct (advance_delay a dt HD) as (H1 & H2 & _). destruct (IH _ H1) as [H3 H4]. split; [assumption|congruence].
Qed.
