(* C15: the containment decided by pattern_matches is sound: whatever the requested pattern can
   match, the granted pattern matches too -- for each of the three matching relations. *)
From WB Require Import Base.Str Base.StrFacts Model.Key Model.Match Model.Auth Proofs.MatchFacts.

(* The three relations treat a literal segment and `?` alike; they differ in what a `#` of the grant stands for, and
   there the request, not being empty, leaves something for it to match. *)
Lemma pm_sound (M : list kseg -> list str -> bool) :
  (forall s p k, M (Reg s :: p) k = match k with x :: k' => str_eqb s x && M p k' | [] => false end) ->
  (forall p k, M (Wild :: p) k = match k with _ :: k' => M p k' | [] => false end) ->
  (forall g rs r k, wf_pat (Multi :: g) = true -> M (rs :: r) k = true -> M (Multi :: g) k = true) ->
  forall g r k, wf_pat g = true -> pm g r = true -> M r k = true -> M g k = true.
Proof.
  intros Mreg Mwild Mmulti. induction g as [|gs g IH]; intros r k Hwf Hpm Hm.
  - destruct r; [assumption|discriminate].
  - destruct r as [|rs r]; [destruct gs; discriminate|]. destruct gs as [x| |]; [| |exact (Mmulti g rs r k Hwf Hm)].
    all: destruct rs as [y| |]; cbn [pm wf_pat kseg_eqb andb orb negb] in *; try discriminate.
    all: rewrite ?Mreg, ?Mwild in Hm; rewrite ?Mreg, ?Mwild; destruct k as [|z k]; [discriminate|].
    + (* x against y *) destruct (str_eqb_spec x y) as [->|]; [|discriminate]. apply andb_true_iff in Hm as [-> Hm]. exact (IH r k Hwf Hpm Hm).
    + (* ? against y *) apply andb_true_iff in Hm as [_ Hm]. exact (IH r k Hwf Hpm Hm).
    + (* ? against ? *) exact (IH r k Hwf Hpm Hm).
Qed.

Theorem pm_sound_doc g : forall r k,
  wf_pat g = true -> pm g r = true -> doc_match r k = true -> doc_match g k = true.
Proof.
  apply (pm_sound doc_match); try (intros; destruct k; reflexivity).
  intros g' rs r k Hwf Hm. destruct g'; [|discriminate]. destruct k; [|reflexivity].
  destruct rs as [x| |]; try discriminate. destruct r; discriminate.
Qed.

Theorem pm_sound_store g : forall r k,
  wf_pat g = true -> pm g r = true -> store_match r k = true -> store_match g k = true.
Proof.
  apply (pm_sound store_match); try reflexivity.
  intros g' rs r k Hwf _. destruct g'; [reflexivity|discriminate].
Qed.

Theorem pm_sound_sub g : forall r k,
  wf_pat g = true -> pm g r = true -> sub_match r k = true -> sub_match g k = true.
Proof.
  apply (pm_sound sub_match); try (intros; destruct k; reflexivity).
  intros g' rs r k _ Hm. destruct k; [|reflexivity]. destruct rs; discriminate.
Qed.

(* a literal key is a pattern without wildcards: the grant must match the key itself *)
Corollary pm_sound_key g key :
  wf_pat g = true -> pm g (map Reg key) = true -> doc_match g key = true.
Proof.
  intros Hwf Hpm. apply (pm_sound_doc g (map Reg key) key Hwf Hpm).
  rewrite doc_match_literal. apply path_eqb_refl.
Qed.

Lemma authorize_spec c p pattern :
  authorize c p pattern = true <-> exists g, In g (grants c p) /\ pattern_matches g pattern = true.
Proof. unfold authorize. rewrite existsb_exists. reflexivity. Qed.
