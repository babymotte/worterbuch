(* C01: the data requests refine the map specification Spec/MapSpec.v.  One request keeps the invariants, changes
   the map as the specification says for its answer and answers a read as prescribed ([step_refines]); an error
   changes nothing that can be observed; whole histories follow ([run_refines], and [run_refines_any] with the
   requests that do not touch the data in between). *)
From WB Require Import Base.Str Base.StrFacts Base.Json Model.Key Model.Store Model.Match
  Model.Subs Model.Entry Model.Core Spec.MapSpec
  Proofs.Frame Proofs.StoreFacts Proofs.TreeInv Proofs.GoodNames Proofs.MergeFacts Proofs.MatchFacts Proofs.CoreFacts
  Proofs.C05Proof Proofs.LenFacts.

Definition c01_op (o : op) : Prop :=
  match o with
  | OGet _ | OCGet _ | OPGet _ | OLs _ | OPLs _ | OLen
  | OSet _ _ _ _ | OCSet _ _ _ _ _ | ODelete _ _ | OPDelete _ _ | OImport _ => True
  | _ => False
  end.

(* whatever an import request decodes to is a tree as imports have them (CoreFacts.good_import) *)
Definition import_ok (o : op) : Prop :=
  match o with
  | OImport j => forall other, dec_persisted j = Some other -> good_import other
  | _ => True
  end.

Lemma meq_refl m : meq m m.
Proof. intros q. reflexivity. Qed.

Lemma In_dedup x l : In x (dedup l) <-> In x l.
Proof.
  induction l as [|y l IH]; cbn [dedup]; [reflexivity|]. cbn [In]. rewrite filter_In, IH.
  split.
  - intros [H|[H _]]; auto.
  - intros [H|H]; [now left|]. destruct (str_eqb_spec y x) as [E|Hne]; [now left|right].
    split; [exact H|]. reflexivity.
Qed.

Lemma NoDup_dedup l : NoDup (dedup l).
Proof.
  induction l as [|y l IH]; cbn [dedup]; constructor.
  - rewrite filter_In. cbv beta. intros [_ H]. now rewrite str_eqb_refl in H.
  - now apply NoDup_filter.
Qed.

Lemma reach_multi_has {V} (n : node V) : forall p, reach_multi n p = true -> In Multi p.
Proof.
  induction n as [v cs IH] using node_ind'. intros p H.
  destruct p as [|[s| |] tail]; cbn [reach_multi] in H; [discriminate| | |now left].
  - right. induction IH as [|[k c] cs Hc Hcs IHcs]; [discriminate|].
    destruct (str_eqb s k); [now apply Hc|now apply IHcs].
  - right. induction IH as [|[k c] cs Hc Hcs IHcs]; [discriminate|].
    apply orb_true_iff in H as [H|H]; [now apply Hc|now apply IHcs].
Qed.

Lemma pls_exact {V} (n : node V) p x :
  wfn n -> cleann n ->
  (In x (collect_children n p) <->
   exists P q e, parent_match p P = true /\ lookup n (P ++ x :: q) = Some e).
Proof.
  intros Hw Hc. rewrite (collect_children_spec n p x Hw). split.
  - intros (P & m & Hm & Hg & Hin). pose proof (ls_exact n P Hw Hc) as H. unfold ls_at in H. rewrite Hg in H.
    destruct H as (_ & H). apply H in Hin as (q & e & Hl). now exists P, q, e.
  - intros (P & q & e & Hm & Hl). pose proof (ls_exact n P Hw Hc) as H. unfold ls_at in H.
    destruct (get_node n P) as [m|] eqn:Hg in H |- *.
    + exists P, m. split; [exact Hm|]. split; [exact Hg|]. apply (proj2 H). now exists q, e.
    + rewrite H in Hl. discriminate.
Qed.

(* read_ok without the clause for len, which needs the invariant of the cached count *)
Definition read_ok0 (m : mstate) (o : op) (r : result) : Prop :=
  match o with OLen => True | _ => read_ok m o r end.

Lemma do_insert_refines s c k e f :
  Inv s -> let r := do_insert s c k e f in
  o_res (snd r) <> RCrash ->
  Inv (fst r) /\
  write_effect (abs s) (abs (fst r)) (match e with Plain v => OSet c k v f | Cas v n => OCSet c k v n f end) (o_res (snd r)).
Proof.
  intros HI r Hnc. pose proof (do_insert_effect s c k e f HI) as H. cbv zeta in H. fold r in H.
  destruct (o_res (snd r)) eqn:Er; try contradiction.
  - destruct H as (p & ex & ch & e' & Ep & Ed & HI' & Hm). split; [exact HI'|].
    apply decide_ok in Ed as (_ & _ & ->). destruct e; exists p; (split; [exact Ep|exact Hm]).
  - rewrite H. split; [exact HI|]. destruct e; apply meq_refl.
Qed.

Lemma step_refines0 s o :
  Inv s -> c01_op o -> import_ok o ->
  let r := step s o in
  o_res (snd r) <> RCrash ->
  Inv (fst r) /\
  write_effect (abs s) (abs (fst r)) o (o_res (snd r)) /\
  read_ok0 (abs s) o (o_res (snd r)).
Proof.
  intros HI Hop Himp. pose proof HI as (Hw & Hc & _).
  destruct o; try contradiction; cbn [step read_ok0]; intros Hnc.
  (* the reads leave the state as it is *)
  1-6: refine (conj HI (conj (meq_refl _) _)); cbn [fst snd o_res out_res read_ok].
  - unfold do_get. destruct (parse_segments k); [|reflexivity]. unfold abs. now destruct (lookup (data s) a).
  - unfold do_cget, m_version. destruct (parse_segments k); [|reflexivity].
    unfold abs. destruct (lookup (data s) a) as [[v|v n]|]; reflexivity.
  - pose proof (do_pget_spec s p HI) as H. destruct (do_pget s p); exact H.
  - unfold do_ls. destruct parent as [parent|]; [|exact (ls_exact (data s) [] Hw Hc)].
    pose proof (ls_exact (data s) (split slash parent) Hw Hc) as H.
    destruct (ls_at (data s) (split slash parent)); [exact H|]. split; [reflexivity|exact H].
  - unfold do_pls. destruct parent as [parent|]; [|exact (ls_exact (data s) [] Hw Hc)].
    destruct (reach_multi (data s) (kseg_parse parent)) eqn:Erm.
    + split; [reflexivity|]. exact (reach_multi_has _ _ Erm).
    + split; [apply NoDup_dedup|]. intros x. rewrite In_dedup. exact (pls_exact (data s) _ x Hw Hc).
  - exact I.
  - destruct (do_insert_refines s c k (Plain v) force HI Hnc) as [H1 H2]. exact (conj H1 (conj H2 I)).
  - destruct (do_insert_refines s c k (Cas v ver) force HI Hnc) as [H1 H2]. exact (conj H1 (conj H2 I)).
  - pose proof (do_delete_effect s c k HI) as H. cbv zeta in H.
    destruct (o_res (snd (do_delete s c k))) eqn:Er; try contradiction.
    + destruct H as (p & e & Ep & El & -> & HI' & Hm). split; [assumption|]. split; [|exact I]. now exists p, e.
    + exact (conj (proj1 H) (conj (proj2 H) I)).
  - pose proof (do_pdelete_effect s c p HI) as H. cbv zeta in H.
    destruct (o_res (snd (do_pdelete s c false p))) eqn:Er; try contradiction.
    + destruct H as (HI' & Hm & ->). split; [assumption|]. split; [exact Hm|].
      intros k v. now apply kvs_collect_spec.
    + rewrite H. exact (conj HI (conj (meq_refl _) I)).
  - pose proof (do_import_effect s j HI Himp) as H. cbv zeta in H.
    destruct (o_res (snd (do_import s j))) eqn:Er; try contradiction.
    + destruct H as (other & Ed & HI' & Hm). split; [assumption|]. split; [|exact I]. now exists other.
    + rewrite H. exact (conj HI (conj (meq_refl _) I)).
Qed.

Theorem step_refines s o :
  Inv s -> LenInv s -> c01_op o -> import_ok o ->
  let r := step s o in
  o_res (snd r) <> RCrash ->
  Inv (fst r) /\ LenInv (fst r) /\
  write_effect (abs s) (abs (fst r)) o (o_res (snd r)) /\
  read_ok (abs s) o (o_res (snd r)).
Proof.
  intros HI HL Hop Himp r Hnc. destruct (step_refines0 s o HI Hop Himp Hnc) as (HI' & Hw & Hr).
  split; [exact HI'|]. split; [now apply step_len|]. split; [exact Hw|].
  destruct o; try exact Hr. cbn [step snd o_res out_res read_ok].
  destruct (count_is_keys (data s) (proj1 HI)) as (keys & Hnd & Hin & Hcount).
  exists keys. split; [exact Hnd|]. split; [exact Hin|]. unfold LenInv in HL. congruence.
Qed.

(* a request answered with an error changes nothing a later request can observe: the map is
   the same, and (by step_refines) every later read is a function of the map *)
Theorem error_is_noop s o code :
  Inv s -> c01_op o -> import_ok o ->
  o_res (snd (step s o)) = RErr code ->
  meq (abs (fst (step s o))) (abs s) /\ Inv (fst (step s o)).
Proof.
  intros HI Hop Himp Hr.
  destruct (step_refines0 s o HI Hop Himp) as (HI' & Hw & _); [rewrite Hr; discriminate|].
  split; [|assumption]. rewrite Hr in Hw. destruct o; try contradiction; exact Hw.
Qed.

(* delete is missing from the list: it answers an error from a new state ([CoreFacts.do_delete_effect]) *)
Theorem rejected_write_is_identity s o code :
  Inv s -> import_ok o ->
  match o with OSet _ _ _ _ | OCSet _ _ _ _ _ | OPDelete _ _ | OImport _ => True | _ => False end ->
  o_res (snd (step s o)) = RErr code -> fst (step s o) = s.
Proof.
  intros HI Himp Hop Hr. destruct o; try contradiction; cbn [step] in *.
  1: pose proof (do_insert_effect s c k (Plain v) force HI) as H.
  2: pose proof (do_insert_effect s c k (Cas v ver) force HI) as H.
  3: pose proof (do_pdelete_effect s c p HI) as H.
  4: pose proof (do_import_effect s j HI Himp) as H.
  all: cbv zeta in H; now rewrite Hr in H.
Qed.

Fixpoint spec_trace (m : mstate) (ops : list op) (outs : list output) : Prop :=
  match ops, outs with
  | [], [] => True
  | o :: ops', out :: outs' =>
      read_ok m o (o_res out) /\
      exists m', write_effect m m' o (o_res out) /\ spec_trace m' ops' outs'
  | _, _ => False
  end.

Definition no_crash (outs : list output) : Prop := Forall (fun o => o_res o <> RCrash) outs.

Lemma abs_init : meq (abs init) m_empty.
Proof. intros q. unfold abs, m_empty. apply lookup_empty. Qed.

(* publish, publish streams, subscriptions of both kinds, locks and the debugging dump do not touch the data.
   Session starts and ends are not among them: they are not requests of their own but runs of these
   (SessionTrace.v) *)
Definition other_op (o : op) : Prop :=
  match o with
  | OPublish _ _ | OSPubInit _ _ _ | OSPub _ _ _ | OSubscribe _ _ _ _ _ | OPSubscribe _ _ _ _ _
  | OUnsubscribe _ _ | OSubscribeLs _ _ _ | OUnsubscribeLs _ _ | OLock _ _ | OAcquire _ _ | ORelease _ _
  | ODump => True
  | _ => False
  end.
Definition any_req (o : op) : Prop := c01_op o \/ other_op o.

Lemma other_data_same s o : other_op o -> data (fst (step s o)) = data s.
Proof. destruct o; try contradiction; intros _; apply step_keeps_data; discriminate. Qed.

Theorem step_refines_any s o :
  Inv s -> LenInv s -> any_req o -> import_ok o ->
  let r := step s o in
  o_res (snd r) <> RCrash ->
  Inv (fst r) /\ LenInv (fst r) /\
  write_effect (abs s) (abs (fst r)) o (o_res (snd r)) /\
  read_ok (abs s) o (o_res (snd r)).
Proof.
  intros HI HL [Hop|Hop] Himp r Hnc; [now apply step_refines|].
  pose proof (other_data_same s o Hop) as Ed. fold r in Ed.
  split; [unfold Inv in *; now rewrite Ed|]. split; [now apply step_len|].
  assert (Hm : meq (abs (fst r)) (abs s)) by (intros q; unfold abs; now rewrite Ed).
  (* of these kinds the specification asks that the map stays as it is, and nothing about the answer *)
  destruct o; try contradiction; exact (conj Hm I).
Qed.

Theorem run_refines_any ops : forall s,
  Inv s -> LenInv s -> Forall any_req ops -> Forall import_ok ops -> no_crash (run s ops) ->
  spec_trace (abs s) ops (run s ops).
Proof.
  induction ops as [|o ops IH]; intros s HI HL Hops Himp Hnc; [exact I|].
  inversion Hops as [|? ? Ho Hops']; subst. inversion Himp as [|? ? Hi Himp']; subst.
  cbn [run] in *. inversion Hnc as [|? ? Hc Hnc']; subst.
  destruct (step_refines_any s o HI HL Ho Hi Hc) as (HI' & HL' & Hw & Hr).
  rewrite (proj2 (crash_res _) Hc) in *. cbn [spec_trace]. split; [exact Hr|].
  exists (abs (fst (step s o))). split; [exact Hw|]. now apply IH.
Qed.

Theorem run_refines ops : forall s,
  Inv s -> LenInv s -> Forall c01_op ops -> Forall import_ok ops -> no_crash (run s ops) ->
  spec_trace (abs s) ops (run s ops).
Proof.
  intros s HI HL Hops. apply run_refines_any; try assumption. revert Hops. apply Forall_impl. now left.
Qed.

Corollary run_refines_init ops :
  Forall c01_op ops -> Forall import_ok ops -> no_crash (run init ops) ->
  spec_trace (abs init) ops (run init ops).
Proof. intros. now apply (run_refines ops init Inv_init eq_refl). Qed.
