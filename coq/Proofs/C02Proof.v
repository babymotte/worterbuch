(* C02: compare-and-swap.  An unforced cset is accepted exactly at the key's current version (0 for an absent or
   plain value) and raises it by one ([cset_rule]); over histories without delete, force and import the version of
   a key counts the csets acknowledged on it ([no_lost_update]), so of two writers carrying the same version one
   loses ([one_winner]). *)
From WB Require Import Base.Str Base.StrFacts Base.Json Model.Key Model.Store Model.Match
  Model.Subs Model.Entry Model.Core Spec.MapSpec
  Proofs.Frame Proofs.StoreFacts Proofs.TreeInv Proofs.GoodNames Proofs.MergeFacts Proofs.MatchFacts Proofs.CoreFacts
  Proofs.C01Proof.
From Coq Require Import Lia.

Definition version_at (s : core) (p : list str) : N := cur_version (abs s p).

Definition writable (c : cid) (k : str) (v : json) (p : list str) : Prop :=
  check_read_only k c = None /\ parse_segments k = Ok p /\ special_value_bad k v = false.

Lemma do_insert_writable s c k e force p :
  writable c k (entry_val e) p ->
  match decide (abs s p) e force with
  | DOk ex ch e' => exists n evs ls,
      do_insert s c k e force = (set_data s (set_at p e' (data s)) n, Output RUnit evs ls [] [])
  | DErr code => do_insert s c k e force = (s, out_res (RErr code))
  | DCrash => do_insert s c k e force = (s, out_res RCrash)
  end.
Proof.
  intros (H1 & H2 & H3). unfold do_insert, abs. rewrite H1, H2, H3. destruct (decide _ _ _); eauto.
Qed.

Theorem cset_rule s c k v n p :
  writable c k v p -> n <> u64_max ->
  let r := step s (OCSet c k v n false) in
  (o_res (snd r) = RUnit <-> n = version_at s p) /\
  (o_res (snd r) = RUnit -> abs (fst r) p = Some (Cas v (n + 1))) /\
  (o_res (snd r) <> RUnit -> o_res (snd r) = RErr E_CasVersionMismatch /\ fst r = s).
Proof.
  intros Hw Hmax. cbn [step]. pose proof (do_insert_writable s c k (Cas v n) false p Hw) as H.
  destruct (decide_cset (abs s p) v n) as (ex & ch & E). rewrite E in H. unfold bump in H.
  apply N.eqb_neq in Hmax. rewrite Hmax in H. unfold version_at.
  destruct (N.eqb_spec n (cur_version (abs s p))) as [En|En].
  - destruct H as (n0 & evs & ls & ->). cbn [snd fst o_res]. split; [now split|]. split; [|congruence].
    intros _. unfold abs. cbn [data set_data]. now rewrite lookup_set_at, path_eqb_refl.
  - rewrite H. cbn [snd fst o_res out_res]. split; [split; [discriminate|congruence]|].
    split; [discriminate|now split].
Qed.

Theorem set_never_replaces_cas s c k v p x vx :
  writable c k v p -> abs s p = Some (Cas x vx) ->
  step s (OSet c k v false) = (s, out_res (RErr E_Cas)).
Proof.
  intros Hw Hl. cbn [step]. pose proof (do_insert_writable s c k (Plain v) false p Hw) as H. now rewrite Hl in H.
Qed.

(* the setting of the "competing writers" clause of C02: no delete, no force, no import *)
Definition quiet_op (o : op) : Prop :=
  match o with
  | OGet _ | OCGet _ | OPGet _ | OLs _ | OPLs _ | OLen => True
  | OSet _ _ _ false | OCSet _ _ _ _ false => True
  | _ => False
  end.

Lemma quiet_c01 o : quiet_op o -> c01_op o /\ import_ok o.
Proof. destruct o; cbn; try tauto. all: destruct force; tauto. Qed.

Lemma m_version_set_other (m : mstate) p q e : p <> q -> cur_version (m_set m p e q) = cur_version (m q).
Proof. intros H. unfold m_set. destruct (path_eqb_spec p q); [contradiction|reflexivity]. Qed.

Definition accepted_cset_on (p : list str) (o : op) (r : result) : bool :=
  match o, r with
  | OCSet _ k _ _ false, RUnit => match parse_segments k with Ok p' => path_eqb p' p | Err _ => false end
  | _, _ => false
  end.

Lemma insert_version s c k e p :
  Inv s -> let r := do_insert s c k e false in
  o_res (snd r) <> RCrash ->
  version_at (fst r) p =
  version_at s p +
  match o_res (snd r), parse_segments k, e with
  | RUnit, Ok p', Cas _ _ => if path_eqb p' p then 1 else 0
  | _, _, _ => 0
  end.
Proof.
  intros HI r Hnc. pose proof (do_insert_effect s c k e false HI) as H. cbv zeta in H. fold r in H.
  unfold version_at. destruct (o_res (snd r)) eqn:Er; try contradiction.
  - destruct H as (p' & ex & ch & e' & -> & Ed & _ & Hm). rewrite Hm. unfold m_set.
    apply decide_version in Ed. destruct (path_eqb_spec p' p) as [->|Hn]; [|destruct e; lia].
    rewrite Ed. now destruct e.
  - rewrite H. lia.
Qed.

Theorem quiet_step_version s o p :
  Inv s -> quiet_op o ->
  let r := step s o in
  o_res (snd r) <> RCrash ->
  Inv (fst r) /\
  version_at (fst r) p = version_at s p + (if accepted_cset_on p o (o_res (snd r)) then 1 else 0).
Proof.
  intros HI Hq. destruct (quiet_c01 o Hq) as [Hc Hi]. intros r Hnc.
  destruct (step_refines0 s o HI Hc Hi Hnc) as (HI' & Hw & _). fold r in HI', Hw. split; [exact HI'|].
  destruct o; try contradiction; cbn [accepted_cset_on].
  1-6: unfold version_at; cbn [write_effect] in Hw; rewrite Hw; lia.
  - destruct force; [contradiction|]. subst r. cbn [step] in *. rewrite (insert_version _ _ _ _ p HI Hnc).
    now destruct (o_res _), (parse_segments k).
  - destruct force; [contradiction|]. subst r. cbn [step] in *. rewrite (insert_version _ _ _ _ p HI Hnc).
    destruct (o_res _); try reflexivity. now destruct (parse_segments k) as [p'|]; [destruct (path_eqb p' p)|].
Qed.

Fixpoint accepted_csets (p : list str) (s : core) (ops : list op) : N :=
  match ops with
  | [] => 0
  | o :: ops' =>
      let r := step s o in
      (if accepted_cset_on p o (o_res (snd r)) then 1 else 0) + accepted_csets p (fst r) ops'
  end.

Theorem no_lost_update p ops : forall s,
  Inv s -> Forall quiet_op ops -> no_crash (run s ops) ->
  Inv (final s ops) /\ version_at (final s ops) p = version_at s p + accepted_csets p s ops.
Proof.
  induction ops as [|o ops IH]; intros s HI Hq Hnc.
  - cbn. split; [assumption|lia].
  - inversion Hq as [|? ? Ho Hq']; subst. cbn [run] in Hnc. inversion Hnc as [|? ? Hc Hnc']; subst.
    destruct (quiet_step_version s o p HI Ho Hc) as (HI' & Hv).
    rewrite (proj2 (crash_res _) Hc) in Hnc'.
    destruct (IH _ HI' Hq' Hnc') as (HI'' & Hv').
    unfold final in *. cbn [fold_left accepted_csets]. split; [exact HI''|]. rewrite Hv', Hv. lia.
Qed.

Corollary versions_monotone p ops s :
  Inv s -> Forall quiet_op ops -> no_crash (run s ops) -> version_at s p <= version_at (final s ops) p.
Proof. intros HI Hq Hnc. destruct (no_lost_update p ops s HI Hq Hnc) as [_ H]. lia. Qed.

Theorem one_winner s c1 c2 k v1 v2 n p ops :
  Inv s -> writable c1 k v1 p -> writable c2 k v2 p -> n <> u64_max ->
  let s1 := fst (step s (OCSet c1 k v1 n false)) in
  o_res (snd (step s (OCSet c1 k v1 n false))) = RUnit ->
  Forall quiet_op ops -> no_crash (run s1 ops) ->
  o_res (snd (step (final s1 ops) (OCSet c2 k v2 n false))) = RErr E_CasVersionMismatch.
Proof.
  intros HI Hw1 Hw2 Hmax s1 Hacc Hq Hnc.
  destruct (cset_rule s c1 k v1 n p Hw1 Hmax) as (_ & Hset & _).
  specialize (Hset Hacc). fold s1 in Hset.
  assert (HI1 : Inv s1).
  { destruct (step_refines0 s (OCSet c1 k v1 n false) HI I I) as (H & _); [rewrite Hacc; discriminate|exact H]. }
  pose proof (versions_monotone p ops s1 HI1 Hq Hnc) as Hmono.
  assert (Hv1 : version_at s1 p = n + 1) by (unfold version_at; now rewrite Hset).
  destruct (cset_rule (final s1 ops) c2 k v2 n p Hw2 Hmax) as (Hiff & _ & Herr).
  apply Herr. intros Hok. apply Hiff in Hok. lia.
Qed.
