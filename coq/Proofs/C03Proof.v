(* C03, one request at a time: an accepted change sends its event to exactly the registered subscribers whose
   position matches the key, unique ones left out when the value stayed (notify_spec); every subscriber sits at
   the position of its own pattern, and subscribe, psubscribe and unsubscribe keep it so (SInv); a psubscribe
   registers one subscriber under the next instance and sends it pget's answer as snapshot (psubscribe_spec). *)
From WB Require Import Base.Str Base.Json Model.Key Model.Match Model.Subs Model.Entry Model.Core Proofs.SubsFacts.

Definition event_for (sb : subscriber) (key : str) (v : json) (deleted : bool) : event :=
  if s_pstate sb then (if deleted then EPDeleted [(key, v)] else EPValue [(key, v)])
  else (if deleted then EDeleted v else EValue v).

Theorem notify_spec s path key v changed deleted i ev :
  wfs (subs s) ->
  (In (i, ev) (notify s path key v changed deleted) <->
   exists sb P, In sb (subs_at (subs s) P) /\ sub_match P path = true /\
                (changed || negb (s_unique sb)) = true /\
                i = s_inst sb /\ ev = event_for sb key v deleted).
Proof.
  intros Hwf. unfold notify. rewrite in_map_iff. split.
  - intros (sb & E & Hin). apply filter_In in Hin as [Hin Hf].
    apply (add_matches_spec path (subs s) sb Hwf) in Hin as (P & HP & Hm).
    injection E as <- <-. exists sb, P. repeat split; try assumption.
  - intros (sb & P & HP & Hm & Hf & -> & ->). exists sb. split; [reflexivity|].
    apply filter_In. split; [|assumption].
    apply (add_matches_spec path (subs s) sb Hwf). now exists P.
Qed.

Definition SInv (s : core) : Prop :=
  wfs (subs s) /\ forall P sb, In sb (subs_at (subs s) P) -> s_pat sb = P.

Lemma SInv_init : SInv init.
Proof.
  split; [cbn; split; [constructor|exact I]|].
  intros P sb H. destruct P; cbn in H; contradiction.
Qed.

Lemma In_subs_at_add P sb n Q x :
  In x (subs_at (add_subscriber P sb n) Q) <-> In x (subs_at n Q) \/ (x = sb /\ Q = P).
Proof.
  rewrite subs_at_add. destruct (kpath_eqb_spec P Q) as [<-|Hn].
  - rewrite in_app_iff. cbn. intuition.
  - intuition congruence.
Qed.

Lemma SInv_add s sb m ni : SInv s -> SInv (set_subs s (add_subscriber (s_pat sb) sb (subs s)) m ni).
Proof.
  intros [Hw Hp]. split; cbn [subs set_subs]; [now apply wfs_add|].
  intros P x Hin. apply In_subs_at_add in Hin as [Hin|[-> ->]]; [now apply Hp|reflexivity].
Qed.

Lemma SInv_remove s pat c t m ni : SInv s -> SInv (set_subs s (remove_id pat c t (subs s)) m ni).
Proof.
  intros [Hw Hp]. split; cbn [subs set_subs]; [now apply wfs_remove|].
  intros P x Hx. rewrite subs_at_remove in Hx.
  destruct (kpath_eqb pat P); [apply filter_In in Hx as [Hx _]|]; now apply Hp.
Qed.

Theorem psubscribe_spec s c t pattern unique live :
  SInv s ->
  let r := do_psubscribe s c t pattern unique live in
  match o_res (snd r) with
  | RSub inst =>
      inst = next_inst s /\ next_inst (fst r) = inst + 1 /\ SInv (fst r) /\
      (forall P x, In x (subs_at (subs (fst r)) P) <->
                   In x (subs_at (subs s) P) \/
                   (x = Subscriber c t inst (kseg_parse pattern) unique true /\ P = kseg_parse pattern)) /\
      data (fst r) = data s /\
      o_events (snd r) =
        (if live then []
         else match do_pget s pattern with Ok kvs => [(inst, EPValue kvs)] | Err _ => [] end)
  | RErr code => fst r = s /\ live = false /\ do_pget s pattern = Err code
  | _ => False
  end.
Proof.
  intros HS. unfold do_psubscribe.
  pose proof (SInv_add s (Subscriber c t (next_inst s) (kseg_parse pattern) unique true)
                (assoc_set id_eqb (c, t) (kseg_parse pattern) (subscriptions s)) (next_inst s + 1) HS) as H1.
  destruct live; [|destruct (do_pget s pattern) as [kvs|code]]; cbn [o_res snd fst out_res]; [| |now repeat split].
  all: do 2 (split; [reflexivity|]); split; [exact H1|]; split; [intros P x; apply In_subs_at_add|]; split; reflexivity.
Qed.

Inductive subscribed (s : core) (c t : N) (k : str) (u ps : bool) : core * output -> Prop :=
| sub_refused code : subscribed s c t k u ps (s, out_res (RErr code))
| sub_accepted l :
    subscribed s c t k u ps
      (set_subs s (add_subscriber (kseg_parse k) (Subscriber c t (next_inst s) (kseg_parse k) u ps) (subs s))
                (assoc_set id_eqb (c, t) (kseg_parse k) (subscriptions s)) (next_inst s + 1),
       Output (RSub (next_inst s)) (map (pair (next_inst s)) l) [] [] []).

Lemma subscribe_cases s c t k u live : subscribed s c t k u false (do_subscribe s c t k u live).
Proof.
  unfold do_subscribe. destruct live; [apply (sub_accepted s c t k u false [])|].
  destruct (do_get s k) as [|v| | | | | | | | |code|]; try apply (sub_accepted s c t k u false []).
  - apply (sub_accepted s c t k u false [EValue v]).
  - destruct (N.eqb code E_NoSuchValue); [apply (sub_accepted s c t k u false [])|apply sub_refused].
Qed.

Lemma psubscribe_cases s c t k u live : subscribed s c t k u true (do_psubscribe s c t k u live).
Proof.
  unfold do_psubscribe. destruct live; [apply (sub_accepted s c t k u true [])|].
  destruct (do_pget s k) as [kvs|code]; [apply (sub_accepted s c t k u true [EPValue kvs])|apply sub_refused].
Qed.

(* a value-preserving write is flagged unchanged (and so reaches only non-unique subscribers) *)
Lemma decide_changed_plain c v force ex ch e' :
  decide (Some (Plain c)) (Plain v) force = DOk ex ch e' -> ch = negb (json_eqb c v).
Proof. cbn. now intros [= _ <- _]. Qed.
