From WB Require Import Base.Str Base.StrFacts Base.Json Model.Key Model.Store Model.Match Model.Subs Model.Entry Model.Core
  Spec.MapSpec Proofs.StoreFacts Proofs.TreeInv.

Lemma collect_children_nil {V} (n : node V) : collect_children n [] = names (nkids n).
Proof. destruct n; reflexivity. Qed.
Lemma collect_children_multi {V} (n : node V) p : collect_children n (Multi :: p) = [].
Proof. destruct n; reflexivity. Qed.
Lemma collect_children_wild {V} (v : option V) cs tail :
  collect_children (Node v cs) (Wild :: tail) = flat_map (fun kc => collect_children (snd kc) tail) cs.
Proof. cbn [collect_children]. induction cs as [|[k c] cs IH]; cbn; [reflexivity|]. now rewrite IH. Qed.
Lemma collect_children_reg {V} (v : option V) cs s tail :
  collect_children (Node v cs) (Reg s :: tail) =
  match find_child s cs with Some c => collect_children c tail | None => [] end.
Proof.
  cbn [collect_children]. induction cs as [|[k c] cs IH]; cbn; [reflexivity|].
  destruct (str_eqb s k); [reflexivity|assumption].
Qed.

(* C05, pls: the union of the children of all parents matching the pattern *)
Theorem collect_children_spec {V} (n : node V) : forall p x,
  wfn n ->
  (In x (collect_children n p) <->
   exists P m, parent_match p P = true /\ get_node n P = Some m /\ In x (names (nkids m))).
Proof.
  intros p x Hwf. revert n Hwf p. refine (wf_node_ind _ _). intros v cs _ Hnd IH p.
  destruct p as [|[s| |] p].
  - rewrite collect_children_nil. cbn [nkids]. split.
    + intros H. exists [], (Node v cs). now repeat split.
    + intros ([|k P] & m & Hm & Hg & Hin); [|discriminate]. now injection Hg as <-.
  - rewrite collect_children_reg. split.
    + destruct (find_child s cs) as [c|] eqn:Ef; [|contradiction]. intros H.
      apply (IH _ _ (find_child_In _ _ _ Ef)) in H as (P & m & Hm & Hg & Hx).
      exists (s :: P), m. cbn [parent_match get_node nkids]. now rewrite str_eqb_refl, Ef.
    + intros ([|k P] & m & Hm & Hg & Hx); [discriminate|]. cbn [parent_match] in Hm.
      apply andb_true_iff in Hm as [Hs Hm]. apply str_eqb_eq in Hs. subst k.
      cbn [get_node nkids] in Hg. destruct (find_child s cs) as [c|] eqn:Ef; [|discriminate].
      apply (IH _ _ (find_child_In _ _ _ Ef)). now exists P, m.
  - rewrite collect_children_wild, in_flat_map. split.
    + intros ([k c] & Hin & H). apply (IH _ _ Hin) in H as (P & m & Hm & Hg & Hx).
      exists (k :: P), m. cbn [parent_match get_node nkids]. now rewrite (In_find_child _ _ _ Hnd Hin).
    + intros ([|k P] & m & Hm & Hg & Hx); [discriminate|].
      cbn [get_node nkids] in Hg. destruct (find_child k cs) as [c|] eqn:Ef; [|discriminate].
      apply find_child_In in Ef. exists (k, c). split; [assumption|]. apply (IH _ _ Ef). now exists P, m.
  - rewrite collect_children_multi. split; [contradiction|].
    intros ([|k P] & m & Hm & _); discriminate.
Qed.

(* C05: an ls notification (path, children) reaches exactly the ls-subscribers registered at that path *)
Theorem notify_ls_spec s notes i l :
  In (i, l) (notify_ls s notes) <->
  exists note sub, In note notes /\ In sub (lssubs s) /\ l_parent sub = fst note /\ i = l_inst sub /\ l = snd note.
Proof.
  unfold notify_ls. rewrite in_flat_map. split.
  - intros (note & Hn & H). apply in_map_iff in H as (sub & E & Hs). apply filter_In in Hs as [Hs Hp].
    injection E as <- <-. exists note, sub. repeat split; try assumption.
    now destruct (path_eqb_spec (l_parent sub) (fst note)).
  - intros (note & sub & Hn & Hs & Hp & -> & ->). exists note. split; [assumption|].
    apply in_map_iff. exists sub. split; [reflexivity|]. apply filter_In. split; [assumption|].
    rewrite Hp. apply path_eqb_refl.
Qed.
