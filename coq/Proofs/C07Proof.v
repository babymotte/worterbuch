(* C07: the publish streams of a client do not survive its session end. *)
From WB Require Import Base.Str Model.Core Proofs.Frame Proofs.SessionEnd.

Definition no_id_of {V} (c : N) (l : list ((N * N) * V)) : Prop := forall id v, In (id, v) l -> fst id <> c.

Lemma no_id_assoc_del {V} c (l : list ((N * N) * V)) id : no_id_of c l -> no_id_of c (assoc_del id_eqb id l).
Proof. intros H id' v Hin. apply filter_In in Hin as [Hin _]. exact (H id' v Hin). Qed.

Lemma del_all_ids {V} c (ids : list (N * N)) : forall (l : list ((N * N) * V)),
  (forall id v, In (id, v) l -> fst id = c -> In id ids) ->
  no_id_of c (fold_left (fun l id => assoc_del id_eqb id l) ids l).
Proof.
  induction ids as [|i ids IH]; intros l H.
  - cbn. intros id v Hin Hc. exact (H id v Hin Hc).
  - cbn [fold_left]. apply IH. intros id v Hin Hc.
    apply filter_In in Hin as [Hin Hne]. cbn [fst] in Hne.
    destruct (H id v Hin Hc) as [<-|Hi]; [|assumption].
    exfalso. unfold id_eqb in Hne. rewrite !N.eqb_refl in Hne. discriminate.
Qed.

Theorem disconnected_drops_spub s c :
  o_res (snd (do_disconnected s c)) <> RCrash ->
  forall id k, In (id, k) (spub_keys (fst (do_disconnected s c))) -> fst id <> c.
Proof.
  intros Hnc id k Hin. apply crash_res in Hnc.
  destruct (disconnected_tables s c Hnc) as (_ & _ & H & _). now apply H in Hin.
Qed.
