From WB Require Import Base.Str Model.Key Model.Store Model.Entry Model.Core Proofs.Frame Proofs.CoreFacts Proofs.C01Proof.

Lemma decide_no_crash cur new force :
  (match new with Cas _ ver => ver <> u64_max | Plain _ => True end) -> decide cur new force <> DCrash.
Proof.
  intros H. unfold decide, bump. destruct cur as [[c|c vc]|], new as [v|v n]; try discriminate.
  - destruct (N.eqb n 0 || force); discriminate.
  - destruct force; discriminate.
  - rewrite (proj2 (N.eqb_neq n u64_max) H). now destruct force, (N.eqb vc n).
  - destruct (N.eqb n 0 || force); discriminate.
Qed.

Lemma insert_no_crash s c k e force :
  (match e with Cas _ ver => ver <> u64_max | Plain _ => True end) -> o_res (snd (do_insert s c k e force)) <> RCrash.
Proof.
  intros H. unfold do_insert. destruct (check_read_only k c); [discriminate|]. destruct (parse_segments k); [|discriminate].
  destruct (special_value_bad _ _); [discriminate|].
  pose proof (decide_no_crash (lookup (data s) a) e force H). destruct (decide _ _ _); cbn; congruence.
Qed.

(* no data request takes the core down: every panic site reachable from set, cset, delete, pdelete,
   import and the reads (get_or_create_child's expect, the debug_assert!(is_clean) of delete and
   delete_matches, the v + 1 of insert) is an explicit RCrash outcome of the model, and on a state
   that satisfies the tree invariant none of them is reached -- except v + 1 at version u64::MAX *)
Theorem data_request_no_crash s o :
  Inv s -> c01_op o -> import_ok o ->
  (match o with OCSet _ _ _ ver _ => ver <> u64_max | _ => True end) ->
  o_res (snd (step s o)) <> RCrash.
Proof.
  intros HI Hop Himp Hver. destruct (can_crash o) eqn:C; [|now apply step_crash].
  destruct o; try discriminate C; try contradiction; cbn [step].
  - now apply insert_no_crash.
  - now apply insert_no_crash.
  - pose proof (do_delete_effect s c k HI) as H. cbv zeta in H. intros E. now rewrite E in H.
  - pose proof (do_pdelete_effect s c p HI) as H. cbv zeta in H. intros E. now rewrite E in H.
Qed.

Theorem data_history_no_crash ops : forall s,
  Inv s -> Forall c01_op ops -> Forall import_ok ops ->
  Forall (fun o => match o with OCSet _ _ _ ver _ => ver <> u64_max | _ => True end) ops ->
  no_crash (run s ops).
Proof.
  induction ops as [|o ops IH]; intros s HI Hop Himp Hv; [constructor|].
  apply Forall_cons_iff in Hop as (Ho & Hop). apply Forall_cons_iff in Himp as (Hi & Himp). apply Forall_cons_iff in Hv as (Hv1 & Hv).
  pose proof (data_request_no_crash s o HI Ho Hi Hv1) as Hc.
  cbn [run]. constructor; [exact Hc|]. rewrite (proj2 (crash_res _) Hc).
  destruct (step_refines0 s o HI Ho Hi Hc) as (HI' & _ & _). now apply IH.
Qed.
