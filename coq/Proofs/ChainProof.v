(* C10, history level: along every chain of requests, completed flushes, crashes inside a flush (at any crash point)
   and kills, a restart yields exactly the recovery of the LAST COMPLETED flush: never an older snapshot, never a mix. *)
From Coq Require Import Lia List.
Import ListNotations.
From WB Require Import Base.Str Base.Json Model.Key Model.Consts Model.Store Model.Entry Model.Core Model.Codec Model.PersistConsts Model.Persist
  Proofs.CodecFacts Proofs.PersistFacts.
Local Open Scope N_scope.

Definition recovery (l : core) : core :=
  apply_gglw (core_of (strip_sys s_SYS (data l))) (all_grave_goods l) (all_last_wills l).

Definition holds (d : fs) (l : core) : Prop :=
  node_ok (strip_sys s_SYS (data l)) /\
  read_checked (slot_store (fs_has f_toggle d)) d = Some (fst (snapshot l)) /\
  read_checked (slot_gglw (fs_has f_toggle d)) d = Some (snd (snapshot l)).

Lemma holds_load d l : holds d l -> load_v3 d = Some (recovery l, d).
Proof. intros (Hok & Hs & Hg). now apply load_selected. Qed.

Lemma holds_restart d l : holds d l -> restart d = (recovery l, d).
Proof. intros H. unfold restart, load. now rewrite (holds_load d l H). Qed.

Lemma holds_after_flush s d : node_ok (strip_sys s_SYS (data s)) -> holds (fst (flush None s d)) s.
Proof.
  intros Hok. destruct (flush_completes s d) as (_ & Ht & Hs & Hg). unfold holds. rewrite Ht. auto.
Qed.

Lemma holds_after_late_crash s d : node_ok (strip_sys s_SYS (data s)) -> holds (fst (flush (Some 16) s d)) s.
Proof.
  intros Hok. destruct (crash_after_flip_is_complete s d) as (Ht & Hs & Hg). unfold holds. rewrite Ht. auto.
Qed.

Lemma holds_after_early_crash s d c l : c < 16 -> holds d l -> holds (fst (flush (Some c) s d)) l.
Proof.
  intros Hc (Hok & Hs & Hg). destruct (load_after_crash s d c Hc) as (Ht & Hs' & Hg').
  unfold holds. rewrite Ht, Hs', Hg'. auto.
Qed.

(* the chain, with the ghost "state at the last completed flush" *)
Definition gstep (st : core * fs * core) (e : pevent) : core * fs * core :=
  let '(s, d, l) := st in
  match e with
  | PReq o => (fst (step s o), d, l)
  | PFlush => (s, fst (flush None s d), s)
  | PCrashInFlush k =>
      let d' := fst (flush (Some k) s d) in
      (fst (restart d'), snd (restart d'), if N.ltb k 16 then l else s)
  | PKillRestart => (fst (restart d), snd (restart d), l)
  end.

(* the ghost does not influence the machine *)
Lemma gstep_pstep st e : let '(s, d, _) := st in let '(s', d', _) := gstep st e in pstep (s, d) e = (s', d').
Proof.
  destruct st as [[s d] l]. destruct e; cbn [gstep pstep]; try reflexivity.
  - now destruct (restart (fst (flush (Some k) s d))).
  - now destruct (restart d).
Qed.

(* every state that is flushed can be written (values within the file format: versions in range) *)
Fixpoint flushable (st : core * fs * core) (es : list pevent) : Prop :=
  match es with
  | [] => True
  | e :: es' =>
      (match e with PFlush | PCrashInFlush _ => node_ok (strip_sys s_SYS (data (fst (fst st)))) | _ => True end) /\
      flushable (gstep st e) es'
  end.

Theorem chain_step s d l e :
  holds d l -> (match e with PFlush | PCrashInFlush _ => node_ok (strip_sys s_SYS (data s)) | _ => True end) ->
  let '(s', d', l') := gstep (s, d, l) e in
  holds d' l' /\
  (match e with PCrashInFlush _ | PKillRestart => s' = recovery l' | _ => True end).
Proof.
  intros H Hok. destruct e as [o| |k|]; cbn [gstep].
  - split; [exact H|exact I].
  - split; [now apply holds_after_flush|exact I].
  - assert (H' : holds (fst (flush (Some k) s d)) (if k <? 16 then l else s)).
    { destruct (N.ltb_spec k 16) as [Hk|Hk]; [now apply holds_after_early_crash|].
      destruct (N.eq_dec k 16) as [->|Hne]; [now apply holds_after_late_crash|].
      rewrite flush_beyond by lia. now apply holds_after_flush. }
    rewrite (holds_restart _ _ H'). cbn [fst snd]. auto.
  - rewrite (holds_restart _ _ H). cbn [fst snd]. auto.
Qed.

Fixpoint grun (st : core * fs * core) (es : list pevent) : core * fs * core :=
  match es with [] => st | e :: es' => grun (gstep st e) es' end.

(* C10 over every chain: once a flush has completed, whatever follows -- requests, further flushes, crashes at any
   crash point of any later flush, kills -- the directory always holds, complete and selected, the snapshot of the
   last completed flush, and a start recovers exactly that one *)
Theorem chain_invariant es : forall s d l,
  holds d l -> flushable (s, d, l) es ->
  let '(s', d', l') := grun (s, d, l) es in
  holds d' l' /\ restart d' = (recovery l', d').
Proof.
  induction es as [|e es IH]; intros s d l H Hf.
  - cbn [grun]. split; [exact H|now apply holds_restart].
  - destruct Hf as [Hok Hrest]. cbn [grun].
    pose proof (chain_step s d l e H Hok) as Hs. cbn [fst] in Hok.
    destruct (gstep (s, d, l) e) as [[s1 d1] l1]. destruct Hs as [H1 _].
    now apply IH.
Qed.

Theorem crash_comes_up_with_last s d l e :
  holds d l -> (match e with PFlush | PCrashInFlush _ => node_ok (strip_sys s_SYS (data s)) | _ => True end) ->
  (match e with PCrashInFlush _ | PKillRestart => True | _ => False end) ->
  let '(s', _, l') := gstep (s, d, l) e in s' = recovery l'.
Proof.
  intros H Hok He. pose proof (chain_step s d l e H Hok) as Hs.
  destruct (gstep (s, d, l) e) as [[s1 d1] l1]. destruct Hs as [_ Hr]. destruct e; try contradiction; exact Hr.
Qed.
