(* C20, the client library (Model/Client.v).  A command files its callback in one of eight maps and a message clears
   one: [on_cmd_map] and [on_msg_map] say so once, and pairing ([pairing]: an answer goes to the call that was
   filed under its transaction id, and only to it) is read off them.  Second half: the send buffer of set_later /
   publish_later, its invariant [BI] (one timer per buffered key), the latest value wins, nothing else is sent. *)
From WB Require Import Base.Str Base.StrFacts Base.ListFacts Base.Json Model.Codec Model.Client.
From Coq Require Import Lia List.
Import ListNotations.
Local Open Scope N_scope.
Local Arguments N.add : simpl never.
Local Arguments N.eqb : simpl never.

Lemma cb_find_insert t' t c m : cb_find t' (cb_insert t c m) = if N.eqb t' t then Some c else cb_find t' m.
Proof.
  induction m as [|[t0 c0] m IH]; cbn [cb_insert cb_find]; [reflexivity|].
  destruct (N.eqb_spec t t0) as [->|Hne]; cbn [cb_find].
  - now destruct (N.eqb t' t0).
  - rewrite IH. destruct (N.eqb_spec t' t0) as [->|]; [|reflexivity]. destruct (N.eqb_spec t0 t); [congruence|reflexivity].
Qed.

Lemma cb_find_remove t t' m : cb_find t (cb_remove t' m) = if N.eqb t t' then None else cb_find t m.
Proof.
  induction m as [|[t0 c0] m IH]; cbn [cb_remove cb_find]; [now destruct (N.eqb t t')|].
  destruct (N.eqb_spec t' t0) as [->|Hne]; cbn [cb_find]; rewrite IH.
  - now destruct (N.eqb t t0).
  - destruct (N.eqb_spec t t0) as [->|]; [|reflexivity]. destruct (N.eqb_spec t0 t'); [congruence|reflexivity].
Qed.

Lemma cb_find_remove_none t t' m : cb_find t m = None -> cb_find t (cb_remove t' m) = None.
Proof. intros H. rewrite cb_find_remove, H. now destruct (N.eqb t t'). Qed.

Lemma cb_remove_absent t m : cb_find t m = None -> cb_remove t m = m.
Proof.
  induction m as [|[t0 c0] m IH]; [reflexivity|]. cbn [cb_find cb_remove]. destruct (N.eqb t t0); [discriminate|]. intros H. now rewrite IH.
Qed.

(* what a command does to one callback map, always under one id *)
Inductive filing := Keep | Put | Drop.
Definition file (f : filing) (t call : N) (m : cbmap) : cbmap :=
  match f with Keep => m | Put => cb_insert t call m | Drop => cb_remove t m end.

Lemma cb_find_file f t call m t' : t <> t' -> cb_find t' (file f t call m) = cb_find t' m.
Proof.
  intros Hne. destruct f; cbn [file]; [reflexivity|rewrite cb_find_insert|rewrite cb_find_remove];
    (destruct (N.eqb_spec t' t); [congruence|reflexivity]).
Qed.

Inductive slot := SlAck | SlState | SlCState | SlPState | SlLsState.
Definition get_slot (sl : slot) (c : cstate) : cbmap :=
  match sl with SlAck => ack c | SlState => state c | SlCState => cstate_ c | SlPState => pstate c | SlLsState => lsstate c end.

(* the commands that get a transaction id of their own *)
Definition slot_of (cmd : ccmd) : option slot :=
  match cmd with
  | CSet _ _ | CCSet _ _ _ | CPublish _ _ | CSPubInit _ | CSubscribe _ _ _ | CPSubscribe _ _ _ _ | CSubscribeLs _ | CLock _ | CReleaseLock _ => Some SlAck
  | CGet _ | CDelete _ => Some SlState
  | CCGet _ => Some SlCState
  | CPGet _ | CPDelete _ _ => Some SlPState
  | CLs _ | CPLs _ => Some SlLsState
  | _ => None
  end.

Definition tid_of_cmsg (m : cmsg) : option N :=
  match m with
  | MProtocolSwitchRequest _ | MAuthorizationRequest _ => None
  | MGet t _ | MCGet t _ | MPGet t _ | MSet t _ _ | MCSet t _ _ _ | MSPubInit t _ | MSPub t _ | MPublish t _ _
  | MSubscribe t _ _ _ | MPSubscribe t _ _ _ _ | MUnsubscribe t | MDelete t _ | MPDelete t _ _ | MLs t _ | MPLs t _
  | MSubscribeLs t _ | MUnsubscribeLs t | MLock t _ | MAcquireLock t _ | MReleaseLock t _ | MTransform t _ _ => Some t
  end.

Definition tid_of_smsg (m : smsg) : option N :=
  match m with
  | SWelcome _ _ _ _ _ => None
  | SPState t _ _ | SAck t | SState t _ | SCState t _ _ | SErr t _ _ | SAuthorized t | SLsState t _ => Some t
  end.

(* the id a command files its callback under (or takes callbacks away from) *)
Definition key_tid (c : cstate) (cmd : ccmd) : N :=
  match cmd with
  | CSPub t _ | CUnsubscribe t | CUnsubscribeAsync t | CUnsubscribeLs t | CUnsubscribeLsAsync t => t
  | _ => next_tid c
  end.

Definition serves (sl : slot) (m : smsg) : bool :=
  match sl, m with
  | _, SErr _ _ _ => true
  | SlAck, SAck _ => true
  | SlState, SState _ _ => true
  | SlCState, SCState _ _ _ => true
  | SlPState, SPState _ _ _ => true
  | SlLsState, SLsState _ _ => true
  | _, _ => false
  end.

(* the eight callback maps: the one-shot slots and the three kinds of stream *)
Inductive cbm := Slot (sl : slot) | Sub | PSub | SubLs.
Definition get_map (k : cbm) (c : cstate) : cbmap :=
  match k with Slot sl => get_slot sl c | Sub => sub c | PSub => psub c | SubLs => subls c end.

Definition slot_eqb (a b : slot) : bool :=
  match a, b with
  | SlAck, SlAck | SlState, SlState | SlCState, SlCState | SlPState, SlPState | SlLsState, SlLsState => true
  | _, _ => false
  end.

Lemma slot_eqb_spec a b : reflect (a = b) (slot_eqb a b).
Proof. destruct a, b; constructor; congruence. Qed.

Definition filing_of (cmd : ccmd) (k : cbm) : filing :=
  match k, cmd with
  | Slot SlAck, (CSPub _ _ | CUnsubscribe _ | CUnsubscribeLs _) => Put
  | Slot sl, _ => match slot_of cmd with Some sl' => if slot_eqb sl sl' then Put else Keep | None => Keep end
  | Sub, CSubscribe _ _ _ | PSub, CPSubscribe _ _ _ _ | SubLs, CSubscribeLs _ => Put
  | (Sub | PSub), (CUnsubscribe _ | CUnsubscribeAsync _) | SubLs, (CUnsubscribeLs _ | CUnsubscribeLsAsync _) => Drop
  | _, _ => Keep
  end.

Lemma on_cmd_map c call cmd k :
  get_map k (fst (fst (on_cmd c call cmd))) = file (filing_of cmd k) (key_tid c cmd) call (get_map k c).
Proof. destruct cmd, k as [[]| | |]; reflexivity. Qed.

Theorem next_tid_grows c call cmd : next_tid (fst (fst (on_cmd c call cmd))) = next_tid c + 1.
Proof. destruct cmd; reflexivity. Qed.

Lemma on_cmd_tid c call cmd sl : slot_of cmd = Some sl -> tid_of_cmsg (snd (fst (on_cmd c call cmd))) = Some (next_tid c).
Proof. destruct cmd; try discriminate; reflexivity. Qed.

Lemma slot_registered c call cmd sl :
  slot_of cmd = Some sl -> cb_find (next_tid c) (get_slot sl (fst (fst (on_cmd c call cmd)))) = Some call.
Proof.
  destruct cmd; try discriminate; intros [= <-]; cbn [on_cmd fst get_slot ack state cstate_ pstate lsstate];
    now rewrite cb_find_insert, N.eqb_refl.
Qed.

Theorem cmd_registers c call cmd sl :
  slot_of cmd = Some sl ->
  let '(c', m, _) := on_cmd c call cmd in
  tid_of_cmsg m = Some (next_tid c) /\ cb_find (next_tid c) (get_slot sl c') = Some call /\ next_tid c' = next_tid c + 1.
Proof.
  intros E. pose proof (on_cmd_tid c call cmd sl E) as Ht. pose proof (slot_registered c call cmd sl E) as Hr.
  pose proof (next_tid_grows c call cmd) as Hn. destruct (on_cmd c call cmd) as [[c' m] tk]. auto.
Qed.

Theorem other_cmd_keeps c call cmd k t :
  key_tid c cmd <> t ->
  cb_find t (get_map k (fst (fst (on_cmd c call cmd)))) = cb_find t (get_map k c).
Proof. intros Hne. rewrite on_cmd_map. now apply cb_find_file. Qed.

Definition clears (k : cbm) (m : smsg) : bool := match k with Slot sl => serves sl m | _ => false end.

Lemma on_msg_map c m k :
  get_map k (fst (on_msg c m)) =
  match tid_of_smsg m with Some t => if clears k m then cb_remove t (get_map k c) else get_map k c | None => get_map k c end.
Proof. destruct m, k as [[]| | |]; reflexivity. Qed.

Lemma on_msg_untagged c m : tid_of_smsg m = None -> on_msg c m = (c, []).
Proof. destruct m; try discriminate; reflexivity. Qed.

Lemma next_tid_msg c m : next_tid (fst (on_msg c m)) = next_tid c.
Proof. destruct m; reflexivity. Qed.

Theorem other_msg_keeps c m k t :
  tid_of_smsg m <> Some t ->
  cb_find t (get_map k (fst (on_msg c m))) = cb_find t (get_map k c).
Proof.
  intros Hne. rewrite on_msg_map. destruct (tid_of_smsg m) as [t'|]; [|reflexivity]. destruct (clears k m); [|reflexivity].
  rewrite cb_find_remove. destruct (N.eqb_spec t t'); [congruence|reflexivity].
Qed.

Definition all_slots : list slot := [SlAck; SlState; SlCState; SlPState; SlLsState].

Definition answers (c : cstate) (m : smsg) (t : N) : list delivery :=
  flat_map (fun sl => if serves sl m then opt_list (cb_find t (get_slot sl c)) (fun call => DAnswer call m) else []) all_slots.

Definition events (c : cstate) (m : smsg) : list delivery :=
  match m with
  | SState t _ => opt_list (cb_find t (get_map Sub c)) (fun call => DEvent call m)
  | SPState t _ _ => opt_list (cb_find t (get_map PSub c)) (fun call => DEvent call m)
  | SLsState t _ => opt_list (cb_find t (get_map SubLs c)) (fun call => DEvent call m)
  | _ => []
  end.

Lemma on_msg_out c m t : tid_of_smsg m = Some t -> snd (on_msg c m) = answers c m t ++ events c m.
Proof.
  destruct m; intros [= <-]; cbn [on_msg snd answers events all_slots flat_map serves get_slot app]; rewrite ?app_nil_r; reflexivity.
Qed.

Lemma events_no_answer c m call a : ~ In (DAnswer call a) (events c m).
Proof. destruct m; cbn [events]; try (intros []); (destruct (cb_find _ _); [intros [H|[]]; discriminate H|intros []]). Qed.

Lemma answer_In c m call :
  In (DAnswer call m) (snd (on_msg c m)) <->
  exists sl t, tid_of_smsg m = Some t /\ cb_find t (get_slot sl c) = Some call /\ serves sl m = true.
Proof.
  destruct (tid_of_smsg m) as [t|] eqn:Ht.
  - rewrite (on_msg_out c m t Ht), in_app_iff. unfold answers. rewrite in_flat_map. split.
    + intros [(sl & _ & H)|H]; [|now apply events_no_answer in H]. exists sl, t.
      destruct (serves sl m); [|destruct H]. destruct (cb_find t (get_slot sl c)) as [call'|]; [|destruct H].
      destruct H as [[= ->]|[]]. auto.
    + intros (sl & t' & [= <-] & Hf & Hs). left. exists sl. split; [destruct sl; cbn; auto 6|]. rewrite Hs, Hf. now left.
  - rewrite on_msg_untagged by exact Ht. split; [intros []|]. intros (_ & _ & [=] & _).
Qed.

Lemma events_none c m t sl :
  tid_of_smsg m = Some t -> (forall k, k <> Slot sl -> cb_find t (get_map k c) = None) -> events c m = [].
Proof. destruct m; intros [= <-] H; cbn [events]; rewrite ?(H Sub), ?(H PSub), ?(H SubLs) by discriminate; reflexivity. Qed.

Lemma answers_own c m t sl call :
  serves sl m = true -> cb_find t (get_slot sl c) = Some call -> (forall k, k <> Slot sl -> cb_find t (get_map k c) = None) ->
  answers c m t = [DAnswer call m].
Proof.
  intros Hs Hf Ho. unfold answers. rewrite (flat_map_ext _ (fun sl' => if slot_eqb sl' sl then [DAnswer call m] else [])).
  - now destruct sl.
  - intros sl'. specialize (Ho (Slot sl')). cbn [get_map] in Ho.
    destruct (slot_eqb_spec sl' sl) as [->|Hne]; [now rewrite Hs, Hf|]. rewrite Ho by congruence. now destruct (serves sl' m).
Qed.

Theorem answer_delivered c m sl t call :
  cb_find t (get_slot sl c) = Some call -> tid_of_smsg m = Some t -> serves sl m = true ->
  In (DAnswer call m) (snd (on_msg c m)) /\ cb_find t (get_slot sl (fst (on_msg c m))) = None.
Proof.
  intros Hf Ht Hs. split; [apply answer_In; now exists sl, t|].
  change (cb_find t (get_map (Slot sl) (fst (on_msg c m))) = None). rewrite on_msg_map, Ht. cbn [clears get_map].
  now rewrite Hs, cb_find_remove, N.eqb_refl.
Qed.

Theorem answer_only_to_registered c m call :
  In (DAnswer call m) (snd (on_msg c m)) ->
  exists sl t, tid_of_smsg m = Some t /\ cb_find t (get_slot sl c) = Some call /\ serves sl m = true.
Proof. apply answer_In. Qed.

Inductive cevent := ECmd (call : N) (cmd : ccmd) | EMsg (m : smsg).
Definition cstep (c : cstate) (e : cevent) : cstate :=
  match e with ECmd call cmd => fst (fst (on_cmd c call cmd)) | EMsg m => fst (on_msg c m) end.
Definition crun (c : cstate) (es : list cevent) : cstate := fold_left cstep es c.

Definition no_touch (t : N) (e : cevent) : Prop :=
  match e with
  | ECmd _ (CSPub t' _ | CUnsubscribe t' | CUnsubscribeAsync t' | CUnsubscribeLs t' | CUnsubscribeLsAsync t') => t' <> t
  | ECmd _ _ => True
  | EMsg m => tid_of_smsg m <> Some t
  end.

Lemma no_touch_key c call cmd t : t < next_tid c -> no_touch t (ECmd call cmd) -> key_tid c cmd <> t.
Proof. intros Hlt. destruct cmd; cbn [no_touch key_tid]; intros He; try exact He; now apply N.neq_sym, N.lt_neq. Qed.

Lemma no_touch_keeps c e k t :
  t < next_tid c -> no_touch t e -> cb_find t (get_map k (cstep c e)) = cb_find t (get_map k c) /\ t < next_tid (cstep c e).
Proof.
  intros Hlt He. destruct e as [cl cmd|m]; cbn [cstep].
  - rewrite next_tid_grows. split; [|lia]. apply other_cmd_keeps. now apply (no_touch_key c cl).
  - rewrite next_tid_msg. split; [|exact Hlt]. now apply other_msg_keeps.
Qed.

Theorem registration_survives es : forall c sl t call,
  t < next_tid c -> cb_find t (get_slot sl c) = Some call -> Forall (no_touch t) es ->
  cb_find t (get_slot sl (crun c es)) = Some call.
Proof.
  induction es as [|e es IH]; intros c sl t call Hlt Hf Hall; [assumption|].
  inversion Hall as [|? ? He Hes]; subst. cbn [crun fold_left].
  destruct (no_touch_keeps c e (Slot sl) t Hlt He) as [Hk Hlt']. apply IH; [exact Hlt'| |exact Hes].
  rewrite <- Hf. exact Hk.
Qed.

(* C20: a call with an id of its own, any interleaving of other calls and of answers to other calls, then its answer:
   the answer reaches exactly that call's callback, once *)
Theorem pairing c call cmd sl es m :
  slot_of cmd = Some sl ->
  Forall (no_touch (next_tid c)) es ->
  tid_of_smsg m = Some (next_tid c) -> serves sl m = true ->
  let c1 := fst (fst (on_cmd c call cmd)) in
  let c2 := crun c1 es in
  In (DAnswer call m) (snd (on_msg c2 m)) /\ cb_find (next_tid c) (get_slot sl (fst (on_msg c2 m))) = None.
Proof.
  intros Hsl Hes Ht Hs. cbv zeta. apply answer_delivered; [|exact Ht|exact Hs].
  apply registration_survives; [rewrite next_tid_grows; lia|now apply slot_registered|exact Hes].
Qed.

(* known finding F16: a second spub on a stream whose first one is not answered yet takes its callback away *)
Theorem spub_overwrites : exists c,
  let c1 := fst (fst (on_cmd c 1 (CSPub 7 JNull))) in
  let c2 := fst (fst (on_cmd c1 2 (CSPub 7 JNull))) in
  snd (on_msg c2 (SAck 7)) = [DAnswer 2 (SAck 7)] /\ snd (on_msg (fst (on_msg c2 (SAck 7))) (SAck 7)) = [].
Proof. exists cinit. vm_compute. split; reflexivity. Qed.

Fixpoint kb_get (key : str) (b : kbuf) : option json :=
  match b with [] => None | (k, v) :: b' => if str_eqb key k then Some v else kb_get key b' end.

Definition keys_nodup (b : kbuf) : Prop := NoDup (map fst b).

Lemma kb_insert_cons key v k0 v0 b :
  kb_insert key v ((k0, v0) :: b) =
  if str_eqb key k0 then ((key, v) :: b, true) else ((k0, v0) :: fst (kb_insert key v b), snd (kb_insert key v b)).
Proof. cbn [kb_insert]. destruct (str_eqb key k0); [reflexivity|]. now destruct (kb_insert key v b). Qed.

Lemma kb_take_cons key k0 v0 b :
  kb_take key ((k0, v0) :: b) =
  if str_eqb key k0 then (b, Some v0) else ((k0, v0) :: fst (kb_take key b), snd (kb_take key b)).
Proof. cbn [kb_take]. destruct (str_eqb key k0); [reflexivity|]. now destruct (kb_take key b). Qed.

Lemma kb_get_In key b : kb_get key b <> None <-> In key (map fst b).
Proof.
  induction b as [|[k0 v0] b IH]; cbn; [split; [congruence|contradiction]|].
  destruct (str_eqb_spec key k0) as [->|Hne]; [split; [now left|discriminate]|].
  rewrite IH. split; [now right|]. intros [E|H]; [congruence|exact H].
Qed.

Lemma kb_insert_get key' key v b : kb_get key' (fst (kb_insert key v b)) = if str_eqb key' key then Some v else kb_get key' b.
Proof.
  induction b as [|[k0 v0] b IH]; [reflexivity|]. rewrite kb_insert_cons.
  destruct (str_eqb_spec key k0) as [->|Hne]; cbn [fst kb_get].
  - now destruct (str_eqb key' k0).
  - rewrite IH. destruct (str_eqb_spec key' k0) as [->|]; [|reflexivity]. destruct (str_eqb_spec k0 key); [congruence|reflexivity].
Qed.

Lemma kb_insert_prev key v b : snd (kb_insert key v b) = true <-> kb_get key b <> None.
Proof.
  induction b as [|[k0 v0] b IH]; [split; [discriminate|now intros []]|]. rewrite kb_insert_cons. cbn [kb_get].
  destruct (str_eqb key k0); [split; [discriminate|reflexivity]|exact IH].
Qed.

Lemma kb_insert_nodup key v b : keys_nodup b -> keys_nodup (fst (kb_insert key v b)).
Proof.
  unfold keys_nodup. induction b as [|[k0 v0] b IH]; [intros _; repeat constructor; intros []|]. rewrite kb_insert_cons. cbn [map fst]. intros H.
  inversion H as [|? ? Hn Hd]; subst.
  destruct (str_eqb_spec key k0) as [->|Hne]; cbn [fst map]; [exact H|].
  constructor; [|exact (IH Hd)]. rewrite <- kb_get_In, kb_insert_get. destruct (str_eqb_spec k0 key); [congruence|]. now rewrite kb_get_In.
Qed.

Lemma kb_take_get key b : snd (kb_take key b) = kb_get key b.
Proof.
  induction b as [|[k0 v0] b IH]; [reflexivity|]. rewrite kb_take_cons. cbn [kb_get]. now destruct (str_eqb key k0).
Qed.

Lemma kb_take_get_other key key' b : key <> key' -> kb_get key' (fst (kb_take key b)) = kb_get key' b.
Proof.
  intros Hne. induction b as [|[k0 v0] b IH]; [reflexivity|]. rewrite kb_take_cons.
  destruct (str_eqb_spec key k0) as [->|H0]; cbn [fst kb_get].
  - destruct (str_eqb_spec key' k0); [congruence|reflexivity].
  - now rewrite IH.
Qed.

Lemma kb_take_nodup key b : keys_nodup b -> keys_nodup (fst (kb_take key b)).
Proof.
  unfold keys_nodup. induction b as [|[k0 v0] b IH]; [intros _; constructor|]. rewrite kb_take_cons. cbn [map fst]. intros H.
  inversion H as [|? ? Hn Hd]; subst.
  destruct (str_eqb_spec key k0) as [->|Hne]; cbn [fst map]; [exact Hd|].
  constructor; [|exact (IH Hd)]. now rewrite <- kb_get_In, kb_take_get_other, kb_get_In.
Qed.

Lemma kb_take_gone key b : keys_nodup b -> kb_get key (fst (kb_take key b)) = None.
Proof.
  unfold keys_nodup. induction b as [|[k0 v0] b IH]; [reflexivity|]. rewrite kb_take_cons. cbn [map fst]. intros H.
  inversion H as [|? ? Hn Hd]; subst. destruct (str_eqb key k0) eqn:E; cbn [fst kb_get].
  - apply str_eqb_eq in E as ->. destruct (kb_get k0 b) eqn:G; [|reflexivity]. elim Hn. apply kb_get_In. congruence.
  - rewrite E. exact (IH Hd).
Qed.

Definition buf_of (k : bkind) (s : sbuf) : kbuf := match k with BSet => set_b s | BPub => pub_b s end.
Definition send_of (k : bkind) (key : str) (v : json) : bsend := match k with BSet => SendSet key v | BPub => SendPublish key v end.

Definition with_buf (k : bkind) (b : kbuf) (s : sbuf) (t : list (bkind * str)) : sbuf :=
  match k with BSet => SBuf b (pub_b s) t | BPub => SBuf (set_b s) b t end.

Lemma bkind_eqb_spec a b : reflect (a = b) (bkind_eqb a b).
Proof. destruct a, b; constructor; congruence. Qed.

Lemma bkind_eqb_refl k : bkind_eqb k k = true.
Proof. now destruct k. Qed.

Lemma buf_of_with k' k b s t : buf_of k' (with_buf k b s t) = if bkind_eqb k' k then b else buf_of k' s.
Proof. now destruct k', k. Qed.

Lemma timers_with k b s t : sb_timers (with_buf k b s t) = t.
Proof. now destruct k. Qed.

Lemma bstep_later s k key v :
  bstep s (Later k key v) =
  (with_buf k (fst (kb_insert key v (buf_of k s))) s
     (if snd (kb_insert key v (buf_of k s)) then sb_timers s else sb_timers s ++ [(k, key)]), []).
Proof. destruct k; cbn [bstep buf_of]; now destruct (kb_insert key v _). Qed.

Lemma bstep_fire s k key :
  bstep s (Fire k key) =
  (with_buf k (fst (kb_take key (buf_of k s))) s (remove_timer k key (sb_timers s)),
   match kb_get key (buf_of k s) with Some v => [send_of k key v] | None => [] end).
Proof. rewrite <- kb_take_get. destruct k; cbn [bstep buf_of]; now destruct (kb_take key _). Qed.

Theorem later_latest s k key v :
  kb_get key (buf_of k (fst (bstep s (Later k key v)))) = Some v /\
  snd (bstep s (Later k key v)) = [] /\
  (forall k' key', (k', key') <> (k, key) -> kb_get key' (buf_of k' (fst (bstep s (Later k key v)))) = kb_get key' (buf_of k' s)).
Proof.
  rewrite bstep_later. cbn [fst snd]. split; [|split; [reflexivity|]].
  - now rewrite buf_of_with, bkind_eqb_refl, kb_insert_get, str_eqb_refl.
  - intros k' key' Hne. rewrite buf_of_with. destruct (bkind_eqb_spec k' k) as [->|]; [|reflexivity].
    rewrite kb_insert_get. destruct (str_eqb_spec key' key); [congruence|reflexivity].
Qed.

Theorem fire_sends s k key :
  snd (bstep s (Fire k key)) = match kb_get key (buf_of k s) with Some v => [send_of k key v] | None => [] end /\
  (keys_nodup (buf_of k s) -> kb_get key (buf_of k (fst (bstep s (Fire k key)))) = None) /\
  (forall k' key', (k', key') <> (k, key) -> kb_get key' (buf_of k' (fst (bstep s (Fire k key)))) = kb_get key' (buf_of k' s)).
Proof.
  rewrite bstep_fire. cbn [fst snd]. split; [reflexivity|]. split.
  - intros Hn. rewrite buf_of_with, bkind_eqb_refl. now apply kb_take_gone.
  - intros k' key' Hne. rewrite buf_of_with. destruct (bkind_eqb_spec k' k) as [->|]; [|reflexivity].
    apply kb_take_get_other. congruence.
Qed.

(* every buffered key has exactly one sleeping task, and only buffered keys have one *)
Definition BI (s : sbuf) : Prop :=
  keys_nodup (set_b s) /\ keys_nodup (pub_b s) /\ NoDup (sb_timers s) /\
  (forall key, In (BSet, key) (sb_timers s) <-> In key (map fst (set_b s))) /\
  (forall key, In (BPub, key) (sb_timers s) <-> In key (map fst (pub_b s))).

Lemma BI_kinds s :
  BI s <->
  (forall k, keys_nodup (buf_of k s)) /\ NoDup (sb_timers s) /\
  (forall k key, In (k, key) (sb_timers s) <-> kb_get key (buf_of k s) <> None).
Proof.
  unfold BI. split.
  - intros (Hs & Hp & Ht & HS & HP). split; [intros []; assumption|]. split; [exact Ht|]. intros [] key; rewrite kb_get_In; [apply HS|apply HP].
  - intros (Hn & Ht & HT). split; [apply (Hn BSet)|]. split; [apply (Hn BPub)|]. split; [exact Ht|].
    split; intros key; rewrite <- kb_get_In; apply HT.
Qed.

(* a delayed task exists only for a pending timer *)
Definition wf_event (s : sbuf) (e : bevent) : Prop :=
  match e with Later _ _ _ => True | Fire k key => In (k, key) (sb_timers s) end.

Lemma timer_eqb_spec k key k0 key0 : reflect ((k, key) = (k0, key0)) (bkind_eqb k k0 && str_eqb key key0).
Proof. destruct (bkind_eqb_spec k k0), (str_eqb_spec key key0); constructor; congruence. Qed.

Lemma remove_timer_In k key l x : NoDup l -> (In x (remove_timer k key l) <-> x <> (k, key) /\ In x l).
Proof.
  induction l as [|[k0 key0] l IH]; cbn; intros H; [now split; [intros []|intros [_ []]]|].
  inversion H as [|? ? Hn Hd]; subst. destruct (timer_eqb_spec k key k0 key0) as [[= <- <-]|Hne].
  - split; [intros Hin; split; [intros ->; contradiction|now right]|intros [Hx [E|Hin]]; [congruence|exact Hin]].
  - cbn. rewrite (IH Hd). split.
    + intros [<-|[Hx Hin]]; [split; [congruence|now left]|split; [exact Hx|now right]].
    + intros [Hx [E|Hin]]; [now left|right; now split].
Qed.

Lemma remove_timer_nodup k key l : NoDup l -> NoDup (remove_timer k key l).
Proof.
  induction l as [|[k0 key0] l IH]; cbn; intros H; [constructor|].
  inversion H as [|? ? Hn Hd]; subst.
  destruct (bkind_eqb k k0 && str_eqb key key0); [exact Hd|].
  constructor; [|now apply IH]. intros Hin. apply (remove_timer_In k key l _ Hd) in Hin. tauto.
Qed.

Theorem BI_init : BI sb_init.
Proof. repeat split; try constructor; cbn; intros; contradiction. Qed.

Theorem BI_step s e : BI s -> BI (fst (bstep s e)).
Proof.
  rewrite !BI_kinds. intros (Hn & Ht & HT). destruct e as [k key v|k key].
  - destruct (later_latest s k key v) as (Hnew & _ & Hoth). rewrite bstep_later in Hnew, Hoth |- *. cbn [fst] in *.
    set (b := buf_of k s) in *.
    assert (Hprev : snd (kb_insert key v b) = true <-> In (k, key) (sb_timers s)) by (rewrite kb_insert_prev; symmetry; apply HT).
    split; [|split].
    + intros k'. rewrite buf_of_with. destruct (bkind_eqb k' k); [apply kb_insert_nodup|]; apply Hn.
    + rewrite timers_with. destruct (snd (kb_insert key v b)); [exact Ht|]. apply NoDup_snoc; [exact Ht|].
      intros Hin. apply Hprev in Hin. discriminate.
    + intros k' key'. rewrite timers_with. destruct (timer_eqb_spec k' key' k key) as [[= -> ->]|Hne].
      * rewrite Hnew. split; [discriminate|intros _]. destruct (snd (kb_insert key v b)); [now apply Hprev|]. apply in_or_app. right. now left.
      * rewrite (Hoth _ _ Hne), <- HT. destruct (snd (kb_insert key v b)); [reflexivity|]. rewrite in_app_iff. cbn [In].
        split; [intros [H|[H|[]]]; [exact H|congruence]|now left].
  - destruct (fire_sends s k key) as (_ & Hgone & Hoth). rewrite bstep_fire in Hgone, Hoth |- *. cbn [fst] in *. split; [|split].
    + intros k'. rewrite buf_of_with. destruct (bkind_eqb k' k); [apply kb_take_nodup|]; apply Hn.
    + rewrite timers_with. now apply remove_timer_nodup.
    + intros k' key'. rewrite timers_with, (remove_timer_In _ _ _ _ Ht), HT. destruct (timer_eqb_spec k' key' k key) as [[= -> ->]|Hne].
      * rewrite (Hgone (Hn k)). split; [now intros [[] _]|now intros []].
      * rewrite (Hoth _ _ Hne). split; [now intros [_ H]|now split].
Qed.

Definition handed (es : list bevent) (m : bsend) : Prop :=
  match m with SendSet key v => In (Later BSet key v) es | SendPublish key v => In (Later BPub key v) es end.

Lemma handed_send es k key v : handed es (send_of k key v) <-> In (Later k key v) es.
Proof. now destruct k. Qed.

Definition holds_handed (s : sbuf) (es : list bevent) : Prop :=
  forall k key v, kb_get key (buf_of k s) = Some v -> In (Later k key v) es.

Lemma handed_step s e l : BI s -> holds_handed s l -> In e l ->
  holds_handed (fst (bstep s e)) l /\ Forall (handed l) (snd (bstep s e)).
Proof.
  rewrite BI_kinds. intros (Hn & _) HH Hin. destruct e as [k key v|k key].
  - destruct (later_latest s k key v) as (Hnew & -> & Hoth). split; [|constructor].
    intros k' x w. destruct (timer_eqb_spec k' x k key) as [[= -> ->]|Hne]; [|rewrite (Hoth _ _ Hne); apply HH].
    rewrite Hnew. now intros [= <-].
  - destruct (fire_sends s k key) as (-> & Hgone & Hoth). split.
    + intros k' x w. destruct (timer_eqb_spec k' x k key) as [[= -> ->]|Hne]; [|rewrite (Hoth _ _ Hne); apply HH].
      now rewrite (Hgone (Hn k)).
    + destruct (kb_get key (buf_of k s)) as [v|] eqn:E; constructor; [|constructor]. now apply handed_send, HH.
Qed.

(* [l]: everything that is ever handed in; the run goes through a part [es] of it *)
Lemma nothing_else_gen l es : forall s, BI s -> holds_handed s l -> incl es l -> Forall (handed l) (snd (brun s es)).
Proof.
  induction es as [|e es IH]; intros s HB H Hi; cbn [brun]; [constructor|].
  destruct (handed_step s e l HB H (Hi e (or_introl eq_refl))) as [H1 H2]. pose proof (BI_step s e HB) as HB1.
  destruct (bstep s e) as [s1 o1]. cbn [fst snd] in *.
  specialize (IH s1 HB1 H1 (fun x Hx => Hi x (or_intror Hx))). destruct (brun s1 es) as [s2 o2].
  apply Forall_app. split; assumption.
Qed.

Theorem nothing_else_sent es : Forall (handed es) (snd (brun sb_init es)).
Proof. apply (nothing_else_gen es es sb_init BI_init); [now intros []|apply incl_refl]. Qed.

Lemma remove_timer_length k key l : In (k, key) l -> S (length (remove_timer k key l)) = length l.
Proof.
  induction l as [|[k0 key0] l IH]; cbn; [intros []|].
  destruct (timer_eqb_spec k key k0 key0) as [|Hne]; [reflexivity|].
  intros [E|H]; [congruence|]. cbn. now rewrite IH.
Qed.

(* every buffered value is eventually sent: a pending timer always finds a value to send, and firing it uses the timer up *)
Theorem pending_timer_sends s k key :
  BI s -> In (k, key) (sb_timers s) ->
  exists v, kb_get key (buf_of k s) = Some v /\ snd (bstep s (Fire k key)) = [send_of k key v] /\
            S (length (sb_timers (fst (bstep s (Fire k key))))) = length (sb_timers s).
Proof.
  rewrite BI_kinds. intros (_ & _ & HT) Hin. rewrite bstep_fire. cbn [fst snd]. rewrite timers_with.
  destruct (kb_get key (buf_of k s)) as [v|] eqn:E; [|now apply HT in Hin].
  exists v. split; [reflexivity|]. split; [reflexivity|]. now apply remove_timer_length.
Qed.

Theorem buffered_has_timer s k key v : BI s -> kb_get key (buf_of k s) = Some v -> In (k, key) (sb_timers s).
Proof. rewrite BI_kinds. intros (_ & _ & HT) E. apply HT. congruence. Qed.

(* the invariant holds along every run of events, whether the timers fire on schedule or not *)
Lemma BI_brun es : forall s, BI s -> BI (fst (brun s es)).
Proof.
  induction es as [|e es IH]; intros s HB; [exact HB|]. cbn [brun].
  pose proof (BI_step s e HB) as H1. destruct (bstep s e) as [s1 o1]. cbn [fst] in *.
  specialize (IH s1 H1). destruct (brun s1 es) as [s2 o2]. exact IH.
Qed.

(* [BI_brun] with the schedule hypothesis that C20 states and nothing needs *)
Theorem BI_run es : forall s, BI s ->
  (fix wf (s : sbuf) (es : list bevent) : Prop :=
     match es with [] => True | e :: es' => wf_event s e /\ wf (fst (bstep s e)) es' end) s es ->
  BI (fst (brun s es)).
Proof. intros s HB _. now apply BI_brun. Qed.
