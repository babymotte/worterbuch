(* C14: every protocol message decodes back from its encoding (layer 1: message <-> JSON value). *)
From WB Require Import Base.Str Base.StrFacts Base.Json Model.Key Model.Store Model.Entry Model.Consts
  Model.CodecConsts Model.Codec Proofs.NumFacts Proofs.StoreFacts.
From Coq Require Import Lia.

Definition opt_le (o : option N) (b : N) : Prop := match o with Some n => n <= b | None => True end.

Definition wf_cmsg (m : cmsg) : Prop :=
  match m with
  | MProtocolSwitchRequest v => v <= u32_max
  | MAuthorizationRequest _ => True
  | MGet t _ | MCGet t _ | MPGet t _ | MSet t _ _ | MSPubInit t _ | MSPub t _ | MPublish t _ _
  | MSubscribe t _ _ _ | MUnsubscribe t | MDelete t _ | MPDelete t _ _ | MLs t _ | MPLs t _
  | MSubscribeLs t _ | MUnsubscribeLs t | MLock t _ | MAcquireLock t _ | MReleaseLock t _
  | MTransform t _ _ => t <= u64_max
  | MCSet t _ _ ver => t <= u64_max /\ ver <= u64_max
  | MPSubscribe t _ _ a _ => t <= u64_max /\ opt_le a u64_max
  end.

Lemma get_u64_jnum fs k n : n <= u64_max -> assoc k fs = Some (jnum n) -> get_u64 fs k = Some n.
Proof. intros H E. unfold get_u64, jnum in *. rewrite E. now apply u64_of_lit_dec. Qed.

Opaque dec_of_N u64_of_lit.

Lemma u32_u64 n : n <= u32_max -> n <= u64_max.
Proof. unfold u32_max, u64_max. lia. Qed.

(* decoding an encoding evaluates, except where it waits for a number or a list that is a variable *)
Ltac codec_eval :=
  lazy -[N.leb u32_max valid_code map map_opt enc_proto dec_proto enc_kvp dec_kvp' as_str enc_node dec_node].

Theorem cmsg_roundtrip m : wf_cmsg m -> dec_cmsg (enc_cmsg m) = Some m.
Proof.
  destruct m as [v|tok|t k|t k|t p|t k v|t k v ver|t k|t v|t k v|t k u [l|]|t p u [a|] [l|]|t|t k|t p [q|]|t [p|]|t [p|]|t [p|]
                |t|t k|t k|t k|t k tpl];
    cbn [wf_cmsg opt_le]; intros Hwf; codec_eval.
  all: rewrite ?u64_of_lit_dec by tauto; try reflexivity.
  rewrite u64_of_lit_dec by now apply u32_u64. apply N.leb_le in Hwf. now rewrite Hwf.
Qed.

Definition wf_smsg (m : smsg) : Prop :=
  match m with
  | SWelcome _ ps _ _ _ => Forall (fun p => fst p <= u32_max /\ snd p <= u32_max) ps
  | SPState t _ _ | SAck t | SState t _ | SAuthorized t | SLsState t _ => t <= u64_max
  | SCState t _ ver => t <= u64_max /\ ver <= u64_max
  | SErr t c _ => t <= u64_max /\ valid_code c = true
  end.

Lemma map_opt_map {A B} (enc : A -> B) (dec : B -> option A) l :
  (forall x, In x l -> dec (enc x) = Some x) -> map_opt dec (map enc l) = Some l.
Proof.
  induction l as [|x l IH]; intros H; [reflexivity|].
  cbn. rewrite H by now left. cbn. rewrite IH; [reflexivity|]. intros y Hy. apply H. now right.
Qed.

Lemma kvps_roundtrip l : map_opt dec_kvp' (map enc_kvp l) = Some l.
Proof. apply map_opt_map. now intros [k v]. Qed.

Lemma strs_roundtrip l : map_opt as_str (map JStr l) = Some l.
Proof. now apply map_opt_map. Qed.

Lemma proto_roundtrip p : fst p <= u32_max /\ snd p <= u32_max -> dec_proto (enc_proto p) = Some p.
Proof.
  destruct p as [a b]. cbn [fst snd]. intros [Ha Hb]. unfold dec_proto, enc_proto. codec_eval.
  rewrite !u64_of_lit_dec by now apply u32_u64. apply N.leb_le in Ha, Hb. now rewrite Ha, Hb.
Qed.

Lemma valid_code_u64 c : valid_code c = true -> c <= u64_max.
Proof.
  unfold valid_code, u64_max. intros H. apply orb_true_iff in H as [H|H].
  - apply N.leb_le in H. lia.
  - apply N.eqb_eq in H. lia.
Qed.

Theorem smsg_roundtrip m : wf_smsg m -> dec_smsg (enc_smsg m) = Some m.
Proof.
  destruct m as [v ps pstr ar cid|t p [l|l]|t|t [v|v]|t v ver|t c meta|t|t ch]; cbn [wf_smsg]; intros Hwf; codec_eval.
  all: rewrite ?u64_of_lit_dec, ?kvps_roundtrip, ?strs_roundtrip by tauto; try reflexivity.
  - rewrite (map_opt_map enc_proto dec_proto); [reflexivity|].
    intros p Hin. apply proto_roundtrip. rewrite Forall_forall in Hwf. now apply Hwf.
  - destruct Hwf as [_ Hc]. rewrite u64_of_lit_dec by now apply valid_code_u64. now rewrite Hc.
Qed.

(* the values the file / wire format of ValueEntry cannot represent faithfully (known finding F8):
   a plain null, and a plain object that looks like the tag of the CAS variant *)
Definition cas_lookalike (v : json) : bool :=
  match v with
  | JObj [(k, JArr [_; JNum lit])] =>
      str_eqb k s_Cas && match u64_of_lit lit with Some _ => true | None => false end
  | _ => false
  end.
Definition entry_ok (e : entry) : Prop :=
  match e with
  | Plain v => v <> JNull /\ cas_lookalike v = false
  | Cas _ n => n <= u64_max
  end.

Lemma entry_roundtrip e : entry_ok e -> dec_entry (enc_entry e) = e.
Proof.
  destruct e as [v|v n]; cbn [entry_ok enc_entry].
  - intros [_ Hl]. unfold dec_entry.
    destruct v as [| | | | |[|[k [| | | |[|x [|[| |lit| | |] [|]]]|]] [|]]]; try reflexivity.
    cbn in Hl. destruct (str_eqb k s_Cas); [|reflexivity]. cbn in Hl.
    destruct (u64_of_lit lit); [discriminate|reflexivity].
  - intros H. unfold dec_entry. cbn. now rewrite u64_of_lit_dec.
Qed.

Fixpoint node_ok (n : node entry) : Prop :=
  match n with
  | Node v cs =>
      match v with Some e => entry_ok e | None => True end /\
      (fix go (cs : list (str * node entry)) : Prop :=
         match cs with [] => True | (_, c) :: cs' => node_ok c /\ go cs' end) cs
  end.

Definition node_fields (kids : list (str * json)) (v : option json) : list (str * json) :=
  match kids with [] => [] | _ => [(s_t, JObj kids)] end ++ match v with Some x => [(s_v, x)] | None => [] end.

(* the children's encoder inside enc_node, and their decoder inside dec_node *)
Fixpoint enc_kids (cs : list (str * node entry)) : list (str * json) :=
  match cs with [] => [] | (k, c) :: cs' => (k, enc_node c) :: enc_kids cs' end.

Lemma enc_node_unfold v cs : enc_node (Node v cs) = JObj (node_fields (enc_kids cs) (option_map enc_entry v)).
Proof. now destruct cs as [|[k c] cs], v. Qed.

Fixpoint dec_kids (kids : list (str * json)) : option (list (str * node entry)) :=
  match kids with
  | [] => Some []
  | (k, c) :: kids' =>
      match dec_node c, dec_kids kids' with
      | Some c', Some r => Some ((k, c') :: r)
      | _, _ => None
      end
  end.

Lemma dec_node_unfold kids v :
  dec_node (JObj (node_fields kids v)) =
  option_map (Node (match v with Some JNull | None => None | Some x => Some (dec_entry x) end)) (dec_kids kids).
Proof. destruct kids as [|[k c] kids], v as [x|]; reflexivity. Qed.

Lemma enc_entry_not_null e : entry_ok e -> enc_entry e <> JNull.
Proof. destruct e; cbn; [tauto|discriminate]. Qed.

Theorem node_roundtrip (n : node entry) : node_ok n -> dec_node (enc_node n) = Some n.
Proof.
  induction n as [v cs IH] using node_ind'. intros [Hv Hcs]. rewrite enc_node_unfold, dec_node_unfold.
  assert (Hkids : dec_kids (enc_kids cs) = Some cs).
  { clear Hv. induction cs as [|[k c] cs IHcs]; [reflexivity|].
    inversion IH as [|? ? Hc IH']; subst. destruct Hcs as [Hoc Hcs'].
    cbn [enc_kids dec_kids]. now rewrite (Hc Hoc : dec_node (enc_node c) = _), (IHcs IH' Hcs'). }
  rewrite Hkids. destruct v as [e|]; [|reflexivity].
  cbn [option_map]. rewrite (entry_roundtrip e Hv).
  pose proof (enc_entry_not_null e Hv). now destruct (enc_entry e).
Qed.

Definition wf_sync (m : syncmsg) : Prop :=
  match m with
  | YInit n _ _ => node_ok n
  | YMut (WCSet _ _ ver _) => ver <= u64_max
  | YMut _ => True
  end.

Theorem sync_roundtrip m : wf_sync m -> dec_sync (enc_sync m) = Some m.
Proof.
  destruct m as [n gg lw|[k v f|k v ver f|k|p]]; cbn [wf_sync]; intros Hwf; codec_eval.
  all: rewrite ?u64_of_lit_dec by assumption; try reflexivity.
  now rewrite (node_roundtrip n Hwf), strs_roundtrip, kvps_roundtrip.
Qed.
