(* The tasks and channels around the core (Model/Conc.v): whatever the scheduler does,
   - the core applies the requests in the order in which they entered the api channel (conc_serializes);
   - every session is handed, in the order of its requests, exactly the answer the serial run gives to each of them
     (conc_answers);
   - for every subscription instance, what its session's socket writer was handed from it, followed by what still
     waits in its channel, is what the serial run of the served requests emits for it, in that order (conc_stream);
     no other session is handed anything of it (conc_private);
   - an item of a subscription is handed to the socket writer only after the answer (Ack) of the subscribe request
     that created it (conc_ack_first).
   Only assumption about the runtime: channels are FIFO. *)
From Coq Require Import Lia List NArith.
Import ListNotations.
From WB Require Import Base.Str Base.ListFacts Model.Key Model.Core Model.Conc Proofs.Frame Proofs.SessionEnd Proofs.StreamProof.
Local Open Scope N_scope.

Definition plain (o : op) : Prop :=
  match o with
  | OSubscribe _ _ _ _ _ | OPSubscribe _ _ _ _ _ | OSubscribeLs _ _ _ | OConnected _ | ODisconnected _ => False
  | _ => True
  end.

Lemma plain_res s o i : plain o -> o_res (snd (step s o)) <> RSub i.
Proof.
  destruct o; try contradiction; intros _; cbn [step snd o_res out_res]; try discriminate.
  all: unfold do_get, do_cget, do_ls, do_pls, do_insert, do_delete, do_pdelete, do_spub_init, do_spub, do_publish, do_import,
         do_unsubscribe, do_unsubscribe_ls, do_lock, do_acquire, do_release.
  all: crush_op; cbn [snd o_res out_res]; discriminate.
Qed.

(* a session start or end answers with its own result unless one of its requests crashed *)
Lemma wrapped_res (o o' : output) i : o_res o' = RUnit -> o_res (if is_crash o then o else o') <> RSub i.
Proof.
  intros E. destruct (is_crash o) eqn:Ec; [|now rewrite E]. unfold is_crash in Ec. intros H. now rewrite H in Ec.
Qed.

Lemma connected_res s c i : o_res (snd (do_connected s c)) <> RSub i.
Proof.
  unfold do_connected. destruct (N.eqb c 0); [discriminate|]. destruct (existsb _ _); [discriminate|]. now apply wrapped_res.
Qed.

Lemma disconnected_res s c i : o_res (snd (do_disconnected s c)) <> RSub i.
Proof. destruct (disconnected_cases s c) as [->|(l' & g & x & _ & _ & ->)]; [discriminate|]. now apply wrapped_res. Qed.

Definition hands_out (s : core) (r : core * output) : Prop :=
  (forall i, o_res (snd r) <> RSub i) \/
  (o_res (snd r) = RSub (next_inst s) /\ next_inst (fst r) = next_inst s + 1 /\
   (length (for_inst (next_inst s) (items_of (snd r))) <= 1)%nat).

Lemma snapshot_hands_out s t m (snap : res (list (N * event))) :
  (forall evs, snap = Ok evs -> (length evs <= 1)%nat) ->
  hands_out s match snap with
              | Ok evs => (set_subs s t m (next_inst s + 1), Output (RSub (next_inst s)) evs [] [] [])
              | Err code => (s, out_res (RErr code))
              end.
Proof.
  intros H. destruct snap as [evs|code]; [right|left; discriminate].
  specialize (H evs eq_refl). repeat split. unfold for_inst, items_of. cbn [snd o_events o_ls map]. rewrite app_nil_r.
  destruct evs as [|e [|e' evs]]; cbn [map filter fst length] in *; [lia| |lia]. destruct (N.eqb _ _); cbn; lia.
Qed.

Lemma step_hands_out s o : hands_out s (step s o).
Proof.
  destruct o; try (left; intros i; apply plain_res; exact I); cbn [step].
  - unfold do_subscribe. apply snapshot_hands_out. intros evs. destruct live; [intros [= <-]; cbn; lia|].
    destruct (do_get s k); try (intros [= <-]; cbn; lia). destruct (N.eqb _ _); [intros [= <-]; cbn; lia|discriminate].
  - unfold do_psubscribe. apply snapshot_hands_out. intros evs. destruct live; [intros [= <-]; cbn; lia|].
    destruct (do_pget s p); [intros [= <-]; cbn; lia|discriminate].
  - right. unfold for_inst, items_of. cbn. rewrite N.eqb_refl. repeat split. cbn. lia.
  - left. intros i. apply connected_res.
  - left. intros i. apply disconnected_res.
Qed.

Theorem step_inst s o :
  next_inst s <= next_inst (fst (step s o)) /\
  forall i, o_res (snd (step s o)) = RSub i -> i = next_inst s /\ next_inst (fst (step s o)) = i + 1.
Proof.
  split; [apply step_mono|]. intros i Hi. destruct (step_hands_out s o) as [Hn|(Er & E & _)]; [now elim (Hn i)|].
  rewrite Er in Hi. injection Hi as <-. now split.
Qed.

Lemma handed_fresh l : forall s, Forall (fun i => next_inst s <= i) (handed (sres s l)) /\ NoDup (handed (sres s l)).
Proof.
  induction l as [|[sn o] l IH]; intros s; [split; constructor|].
  cbn [sres handed flat_map snd]. fold (handed (sres (fst (step s o)) l)).
  destruct (IH (fst (step s o))) as (Hge & Hnd). destruct (step_inst s o) as (Hmono & Hsub).
  assert (Hge' : Forall (fun i => next_inst s <= i) (handed (sres (fst (step s o)) l))).
  { eapply Forall_impl; [|exact Hge]. cbn. intros; lia. }
  destruct (o_res (snd (step s o))) eqn:E; cbn [app]; try (split; assumption).
  destruct (Hsub inst eq_refl) as (-> & Hn). split.
  - constructor; [lia|exact Hge'].
  - constructor; [|exact Hnd]. intros Hin. rewrite Forall_forall in Hge. specialize (Hge _ Hin). lia.
Qed.

Lemma sres_app l1 : forall s l2, sres s (l1 ++ l2) = sres s l1 ++ sres (final s (map snd l1)) l2.
Proof.
  induction l1 as [|[sn o] l1 IH]; intros s l2; [reflexivity|]. cbn [app sres map final fold_left].
  rewrite IH. reflexivity.
Qed.

Lemma emitted_app i l1 : forall s l2, emitted i s (l1 ++ l2) = emitted i s l1 ++ emitted i (final s l1) l2.
Proof.
  induction l1 as [|o l1 IH]; intros s l2; [reflexivity|]. cbn [app emitted final fold_left].
  rewrite IH, app_assoc. reflexivity.
Qed.

Lemma mine_app sn a b : mine sn (a ++ b) = mine sn a ++ mine sn b.
Proof. unfold mine. apply flat_map_app. Qed.
Lemma ans_proj_app a b : ans_proj (a ++ b) = ans_proj a ++ ans_proj b.
Proof. unfold ans_proj. apply flat_map_app. Qed.
Lemma item_proj_app i a b : item_proj i (a ++ b) = item_proj i a ++ item_proj i b.
Proof. unfold item_proj. apply flat_map_app. Qed.

Lemma upd_same {A} k (v : A) f : upd k v f k = v.
Proof. unfold upd. now rewrite N.eqb_refl. Qed.
Lemma upd_other {A} k k' (v : A) f : k <> k' -> upd k v f k' = f k'.
Proof. unfold upd. intros H. destruct (N.eqb_spec k k'); [contradiction|reflexivity]. Qed.

Definition handed2 (l : list (op * result)) : list N :=
  flat_map (fun x => match snd x with RSub i => [i] | _ => [] end) l.

Lemma in_mine sn o r S : In (o, r) (mine sn S) -> In (sn, o, r) S.
Proof.
  unfold mine. intros H. apply in_flat_map in H as ([[sn' o'] r'] & Hin & Hx). cbn [fst snd] in Hx.
  destruct (N.eqb_spec sn' sn) as [->|]; [|contradiction]. destruct Hx as [[= <- <-]|[]]. exact Hin.
Qed.

Lemma In_handed S w i : In w S -> snd w = RSub i -> In i (handed S).
Proof. intros Hw Ew. apply in_flat_map. exists w. split; [exact Hw|]. rewrite Ew. now left. Qed.

Lemma handed_unique S : NoDup (handed S) -> forall x y i, In x S -> In y S -> snd x = RSub i -> snd y = RSub i -> x = y.
Proof.
  induction S as [|z S IH]; intros Hnd x y i Hx Hy Ex Ey; [contradiction|].
  cbn [handed flat_map] in Hnd. apply NoDup_app_inv in Hnd as (_ & Hnd & Hdis).
  assert (Hz : forall w, In w S -> snd w = RSub i -> snd z <> RSub i).
  { intros w Hw Ew Ez. apply (Hdis i); [rewrite Ez; now left|exact (In_handed S w i Hw Ew)]. }
  destruct Hx as [->|Hx], Hy as [->|Hy]; [reflexivity|now elim (Hz y)|now elim (Hz x)|exact (IH Hnd x y i Hx Hy Ex Ey)].
Qed.

Lemma handed2_mine sn S : NoDup (handed S) -> NoDup (handed2 (mine sn S)).
Proof.
  induction S as [|[[sn' o] r] S IH]; intros Hnd; [constructor|].
  cbn [handed flat_map snd] in Hnd. apply NoDup_app_inv in Hnd as (_ & Hnd & Hdis).
  unfold mine. cbn [flat_map fst snd]. fold (mine sn S).
  destruct (N.eqb sn' sn); [|exact (IH Hnd)]. cbn [app handed2 flat_map snd]. fold (handed2 (mine sn S)).
  destruct r; cbn [app]; try exact (IH Hnd). constructor; [|exact (IH Hnd)].
  intros Hin. apply (Hdis inst); [now left|].
  apply in_flat_map in Hin as ([o' r'] & Hin & Hx). cbn [snd] in Hx.
  destruct r'; try contradiction. destruct Hx as [<-|[]]. exact (In_handed S _ _ (in_mine _ _ _ _ Hin) eq_refl).
Qed.

Definition S_of (w : cw) : list (N * op * result) := sres init (c_served w).

Record CI (w : cw) : Prop := {
  ci_fifo : c_served w ++ c_api w = c_posted w;
  ci_core : c_core w = final init (map snd (c_served w));
  ci_wait : forall sn o, In (sn, o) (c_api w) -> c_task w sn = TWait o;
  ci_nodup : NoDup (map fst (c_api w));
  ci_ans : forall sn, ans_proj (c_wire w sn) ++ done_of (c_task w sn) = mine sn (S_of w);
  ci_stream : forall i, match c_owner w i with Some sn => item_proj i (c_wire w sn) | None => [] end ++ c_subq w i
                        = emitted i init (map snd (c_served w));
  ci_private : forall sn i, c_owner w i <> Some sn -> item_proj i (c_wire w sn) = [];
  ci_acked : forall sn i, c_owner w i = Some sn -> exists o, In (WAns o (RSub i)) (c_wire w sn);
  ci_first : forall sn a i x b, c_wire w sn = a ++ WItem i x :: b -> exists o, In (WAns o (RSub i)) a }.

Lemma CI_init : CI cinit.
Proof.
  split; cbn; try reflexivity; try (intros; contradiction); try constructor; try discriminate.
  intros sn a i x b H. destruct a; discriminate.
Qed.

Lemma wire_snoc {A} (wire : N -> list A) sn m sn' :
  upd sn (wire sn ++ [m]) wire sn' = wire sn' ++ (if N.eqb sn sn' then [m] else []).
Proof. unfold upd. destruct (N.eqb_spec sn sn') as [<-|_]; [reflexivity|now rewrite app_nil_r]. Qed.

Lemma first_snoc wire sn m :
  (forall sn' a i x b, wire sn' = a ++ WItem i x :: b -> exists o, In (WAns o (RSub i)) a) ->
  (forall i x, m = WItem i x -> exists o, In (WAns o (RSub i)) (wire sn)) ->
  forall sn' a i x b, upd sn (wire sn ++ [m]) wire sn' = a ++ WItem i x :: b -> exists o, In (WAns o (RSub i)) a.
Proof.
  intros Hl Hm sn' a i x b. unfold upd. destruct (N.eqb_spec sn sn') as [<-|_]; [|apply Hl]. intros E.
  induction b as [|z b _] using rev_ind.
  - (* the item is the new last element *)
    apply app_inj_tail in E as (<- & ->). exact (Hm i x eq_refl).
  - rewrite app_comm_cons, app_assoc in E. apply app_inj_tail in E as (E & _). exact (Hl sn a i x b E).
Qed.

Lemma ans_in_proj o r l : In (WAns o r) l -> In (o, r) (ans_proj l).
Proof. intros H. unfold ans_proj. apply in_flat_map. exists (WAns o r). split; [exact H|now left]. Qed.

Lemma answered_fresh w sn o i : CI w -> c_task w sn = TDone o (RSub i) -> c_owner w i = None.
Proof.
  intros [_ _ _ _ Ha _ _ Hk _] Et. destruct (c_owner w i) as [sn0|] eqn:Eo; [exfalso|reflexivity].
  destruct (Hk sn0 i Eo) as (o' & Hin). apply ans_in_proj in Hin.
  pose proof (proj2 (handed_fresh (c_served w) init)) as Hnd0. fold (S_of w) in Hnd0.
  destruct (N.eqb_spec sn0 sn) as [->|Hne].
  - pose proof (handed2_mine sn _ Hnd0) as Hnd1. rewrite <- (Ha sn), Et in Hnd1. cbn [done_of] in Hnd1.
    unfold handed2 in Hnd1. rewrite flat_map_app in Hnd1. cbn [flat_map snd app] in Hnd1.
    apply NoDup_remove_2 in Hnd1. apply Hnd1. rewrite app_nil_r. apply in_flat_map. exists (o', RSub i). split; [exact Hin|now left].
  - assert (In1 : In (sn0, o', RSub i) (S_of w)).
    { apply in_mine. rewrite <- (Ha sn0). apply in_or_app. now left. }
    assert (In2 : In (sn, o, RSub i) (S_of w)).
    { apply in_mine. rewrite <- (Ha sn), Et. apply in_or_app. right. now left. }
    pose proof (handed_unique _ Hnd0 _ _ i In1 In2 eq_refl eq_refl) as E. injection E as E _. contradiction.
Qed.

Theorem cstep_CI w e : CI w -> CI (cstep w e).
Proof.
  intros HCI. pose proof HCI as [Hf Hc Hw Hnd Ha Hs Hp Hk H1]. destruct e as [sn o| |sn|i]; cbn [cstep].
  - (* post *)
    destruct (c_task w sn) eqn:Et; try exact HCI.
    split; cbn [c_served c_api c_posted c_core c_task c_subq c_owner c_wire]; try assumption.
    + now rewrite app_assoc, Hf.
    + intros sn' o' Hin. apply in_app_or in Hin as [Hin|[[= <- <-]|[]]]; [|apply upd_same].
      rewrite upd_other; [now apply Hw|]. intros <-. rewrite (Hw _ _ Hin) in Et. discriminate.
    + rewrite map_app. cbn [map fst]. apply NoDup_snoc; [exact Hnd|].
      intros Hx. apply in_map_iff in Hx as ([sn' o'] & E & Hin). cbn [fst] in E. subst sn'.
      rewrite (Hw _ _ Hin) in Et. discriminate.
    + intros sn'. specialize (Ha sn'). unfold upd. destruct (N.eqb_spec sn sn') as [<-|_]; [now rewrite Et in Ha|exact Ha].
  - (* serve *)
    destruct (c_api w) as [|[sn o] rest] eqn:Eapi; [exact HCI|].
    assert (Etask : c_task w sn = TWait o) by (apply Hw; now left).
    cbn [map fst] in Hnd. apply NoDup_cons_iff in Hnd as (Hnotin & Hnd').
    split; cbn [c_served c_api c_posted c_core c_task c_subq c_owner c_wire]; try assumption.
    + rewrite <- Hf, <- app_assoc. reflexivity.
    + rewrite map_app, final_app, <- Hc. reflexivity.
    + intros sn' o' Hin. rewrite upd_other; [apply Hw; now right|]. intros <-. apply Hnotin. apply in_map_iff. now exists (sn, o').
    + intros sn'. specialize (Ha sn'). unfold S_of in *. cbn [c_served]. rewrite sres_app, mine_app, <- Ha. cbn [map]. rewrite <- Hc.
      cbn [sres]. unfold mine, upd. cbn [flat_map fst snd]. destruct (N.eqb_spec sn sn') as [<-|_]; [rewrite Etask|]; now rewrite !app_nil_r.
    + intros i. rewrite map_app, emitted_app. cbn [map emitted]. rewrite <- Hc, app_nil_r.
      unfold push_all. rewrite app_assoc, Hs. reflexivity.
  - (* answer *)
    destruct (c_task w sn) as [| |o r] eqn:Et; try exact HCI.
    (* the owners are as they were, except that a fresh instance now belongs to [sn] *)
    assert (Ho : forall i, let own := match r with RSub j => upd j (Some sn) (c_owner w) | _ => c_owner w end in
                           own i = c_owner w i \/ (r = RSub i /\ own i = Some sn /\ c_owner w i = None)).
    { intros i. destruct r; try (now left). unfold upd. destruct (N.eqb_spec inst i) as [->|]; [right|now left].
      repeat split. exact (answered_fresh w sn o i HCI Et). }
    (* an answer is no item *)
    assert (Hitem : forall i sn', item_proj i (upd sn (c_wire w sn ++ [WAns o r]) (c_wire w) sn') = item_proj i (c_wire w sn')).
    { intros i sn'. rewrite wire_snoc, item_proj_app. destruct (N.eqb sn sn'); apply app_nil_r. }
    split; cbn [c_served c_api c_posted c_core c_task c_subq c_owner c_wire]; try assumption.
    + intros sn' o' Hin. rewrite upd_other; [now apply Hw|]. intros <-. rewrite (Hw _ _ Hin) in Et. discriminate.
    + intros sn'. rewrite wire_snoc, ans_proj_app. specialize (Ha sn'). unfold upd. destruct (N.eqb_spec sn sn') as [<-|_].
      * rewrite Et in Ha. cbn [done_of ans_proj flat_map app] in *. now rewrite app_nil_r.
      * now rewrite app_nil_r.
    + intros i. specialize (Hs i). destruct (Ho i) as [->|(_ & -> & En)].
      * destruct (c_owner w i); [rewrite Hitem|]; exact Hs.
      * rewrite En in Hs. rewrite Hitem, (Hp sn i); [exact Hs|]. now rewrite En.
    + intros sn' i Hno. rewrite Hitem. apply Hp. destruct (Ho i) as [<-|(_ & _ & ->)]; [exact Hno|discriminate].
    + intros sn' i Hi. destruct (Ho i) as [E|(-> & E & _)]; rewrite E in Hi.
      * destruct (Hk sn' i Hi) as (o' & Hin). exists o'. rewrite wire_snoc. apply in_or_app. now left.
      * injection Hi as <-. exists o. rewrite upd_same. apply in_or_app. right. now left.
    + apply first_snoc; [exact H1|discriminate].
  - (* forward *)
    destruct (c_owner w i) as [sn|] eqn:Eo; [|exact HCI].
    destruct (c_subq w i) as [|x rest] eqn:Eq; [exact HCI|].
    split; cbn [c_served c_api c_posted c_core c_task c_subq c_owner c_wire]; try assumption.
    + intros sn'. rewrite wire_snoc, ans_proj_app. destruct (N.eqb sn sn'); cbn [ans_proj flat_map app]; rewrite app_nil_r; apply Ha.
    + intros j. specialize (Hs j). destruct (N.eqb_spec i j) as [<-|Hne].
      * rewrite Eo, Eq in Hs. rewrite Eo, wire_snoc, item_proj_app, N.eqb_refl, upd_same. cbn [item_proj flat_map]. rewrite N.eqb_refl. cbn [app].
        rewrite <- app_assoc. exact Hs.
      * rewrite (upd_other i j) by exact Hne. destruct (c_owner w j) as [sn'|]; [|exact Hs].
        rewrite wire_snoc, item_proj_app. destruct (N.eqb sn sn'); cbn [item_proj flat_map]; [|rewrite app_nil_r; exact Hs].
        destruct (N.eqb_spec i j); [contradiction|]. rewrite app_nil_r. exact Hs.
    + intros sn' j Hno. rewrite wire_snoc, item_proj_app, (Hp sn' j Hno). destruct (N.eqb_spec sn sn') as [<-|_]; [|reflexivity].
      cbn [item_proj flat_map app]. destruct (N.eqb_spec i j) as [<-|_]; [congruence|reflexivity].
    + intros sn' j Ho. destruct (Hk sn' j Ho) as (o' & Hin). exists o'. rewrite wire_snoc. apply in_or_app. now left.
    + apply first_snoc; [exact H1|]. intros j' x' [= <- <-]. exact (Hk sn i Eo).
Qed.

Theorem crun_CI es : CI (crun es).
Proof.
  induction es as [|e es IH] using rev_ind; [exact CI_init|]. unfold crun. rewrite fold_left_app. now apply cstep_CI.
Qed.


Definition evs_of (l : list item) : list event := flat_map (fun x => match x with IEv e => [e] | ILs _ => [] end) l.
Lemma evs_of_app a b : evs_of (a ++ b) = evs_of a ++ evs_of b.
Proof. unfold evs_of. apply flat_map_app. Qed.

Lemma evs_for_inst i out : evs_of (for_inst i (items_of out)) = chan i (o_events out).
Proof.
  unfold for_inst, items_of, chan. induction (o_events out) as [|[j e] l IH]; cbn [map app filter fst snd].
  - induction (o_ls out) as [|[j x] l IH]; [reflexivity|]. cbn [map filter fst snd]. now destruct (N.eqb j i).
  - destruct (N.eqb j i); cbn [map snd evs_of flat_map app]; [f_equal|]; exact IH.
Qed.

Lemma evs_emitted i l : forall s, evs_of (emitted i s l) = stream i s l.
Proof.
  induction l as [|o l IH]; intros s; [reflexivity|]. cbn [emitted stream]. now rewrite evs_of_app, evs_for_inst, IH.
Qed.

Theorem conc_serializes es :
  c_served (crun es) ++ c_api (crun es) = c_posted (crun es) /\
  c_core (crun es) = final init (map snd (c_served (crun es))).
Proof. destruct (crun_CI es) as [Hf Hc _ _ _ _ _ _ _]. now split. Qed.

(* [done_of]: the last answer may still be on its way (the oneshot has fired, the serve loop has not run yet) *)
Theorem conc_answers es sn :
  ans_proj (c_wire (crun es) sn) ++ done_of (c_task (crun es) sn) = mine sn (sres init (c_served (crun es))).
Proof. exact (ci_ans _ (crun_CI es) sn). Qed.

(* what the serial run emits for a registered subscription: C03_stream_all *)
Theorem conc_stream es i sn :
  c_owner (crun es) i = Some sn ->
  evs_of (item_proj i (c_wire (crun es) sn)) ++ evs_of (c_subq (crun es) i) = stream i init (map snd (c_served (crun es))).
Proof.
  intros Ho. pose proof (ci_stream _ (crun_CI es) i) as H. rewrite Ho in H.
  rewrite <- evs_emitted, <- H, evs_of_app. reflexivity.
Qed.

Theorem conc_private es i sn : c_owner (crun es) i <> Some sn -> item_proj i (c_wire (crun es) sn) = [].
Proof. exact (ci_private _ (crun_CI es) sn i). Qed.

Theorem conc_ack_first es sn a i x b :
  c_wire (crun es) sn = a ++ WItem i x :: b -> exists o, In (WAns o (RSub i)) a.
Proof. exact (ci_first _ (crun_CI es) sn a i x b). Qed.

Corollary conc_drained es i sn :
  c_owner (crun es) i = Some sn -> c_subq (crun es) i = [] ->
  evs_of (item_proj i (c_wire (crun es) sn)) = stream i init (map snd (c_served (crun es))).
Proof. intros Ho Hq. pose proof (conc_stream es i sn Ho) as H. rewrite Hq in H. cbn in H. now rewrite app_nil_r in H. Qed.

(* a channel can always be drained: forwarding is enabled whenever the channel of an owned instance is not empty *)
Lemma forward_progress w i sn x rest :
  c_owner w i = Some sn -> c_subq w i = x :: rest ->
  c_subq (cstep w (CForward i)) i = rest /\ c_wire (cstep w (CForward i)) sn = c_wire w sn ++ [WItem i x].
Proof. intros Ho Hq. cbn [cstep]. rewrite Ho, Hq. cbn [c_subq c_wire]. now rewrite !upd_same. Qed.

(* Bounded channels: the one moment at which nobody can drain a channel.
   The channels of the code are bounded (capacity: the configured channel buffer size, at least 1) and the core task
   awaits room.  A subscription's channel has a reader only once the subscribe request has been ANSWERED (the
   forwarding task is spawned by the serve loop afterwards), so what the core puts into the new channel while it
   serves the subscribe request itself must fit: it is at most one item (the snapshot), whatever the size of the
   store. *)
Theorem subscribe_fits s o i :
  o_res (snd (step s o)) = RSub i -> (length (for_inst i (items_of (snd (step s o)))) <= 1)%nat.
Proof.
  intros Hi. destruct (step_hands_out s o) as [Hn|(Er & _ & Hl)]; [now elim (Hn i)|].
  rewrite Er in Hi. injection Hi as <-. exact Hl.
Qed.

Definition quiescent (w : cw) : Prop :=
  c_api w = [] /\ (forall sn, c_task w sn = TIdle) /\ (forall i sn, c_owner w i = Some sn -> c_subq w i = []).

Theorem conc_quiescent es :
  quiescent (crun es) ->
  c_served (crun es) = c_posted (crun es) /\
  c_core (crun es) = final init (map snd (c_posted (crun es))) /\
  (forall sn, ans_proj (c_wire (crun es) sn) = mine sn (sres init (c_posted (crun es)))) /\
  (forall i sn, c_owner (crun es) i = Some sn ->
     evs_of (item_proj i (c_wire (crun es) sn)) = stream i init (map snd (c_posted (crun es)))).
Proof.
  intros (Hapi & Htask & Hq). destruct (conc_serializes es) as (Hf & Hc). rewrite Hapi, app_nil_r in Hf.
  rewrite <- Hf. split; [reflexivity|]. split; [exact Hc|]. split.
  - intros sn. pose proof (conc_answers es sn) as H. rewrite Htask in H. cbn [done_of] in H. now rewrite app_nil_r in H.
  - intros i sn Ho. exact (conc_drained es i sn Ho (Hq i sn Ho)).
Qed.
