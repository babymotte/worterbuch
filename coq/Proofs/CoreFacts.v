(* Step-level facts about Model/Core.v for the data part: what [decide] accepts and stores (the CAS rule
   included), then every answered request related to the map specification; at the end the keys under
   $SYS/clients as raw strings. *)
From WB Require Import Base.ListFacts Base.Str Base.StrFacts Base.Json Base.JsonFacts Model.Key Model.Consts Model.Store Model.Match
  Model.Subs Model.Entry Model.Core Spec.MapSpec
  Proofs.StoreFacts Proofs.TreeInv Proofs.GoodNames Proofs.MergeFacts Proofs.MatchFacts.
From Coq Require Import Lia.

Definition abs (s : core) : mstate := lookup (data s).

(* the invariant of the data tree: a HashMap at every level, no obsolete node, regular names,
   and no value at the root (the root is not addressable by any key: this is what makes every stored
   key non-empty, [key_good]) *)
Definition Inv (s : core) : Prop :=
  wfn (data s) /\ cleann (data s) /\ goodn (data s) /\ nval (data s) = None.

Lemma Inv_init : Inv init.
Proof. repeat split; try exact I. constructor. Qed.

Lemma Inv_ext s s' : data s' = data s -> Inv s -> Inv s'.
Proof. unfold Inv. now intros ->. Qed.

Lemma abs_ext s s' : data s' = data s -> abs s' = abs s.
Proof. unfold abs. now intros ->. Qed.

Lemma reach_bad_wf {V} (n : node V) : forall p, wf_pat p = true -> reach_bad n p = false.
Proof.
  induction n as [v cs IH] using node_ind'. intros p Hwf.
  destruct p as [|s p]; [reflexivity|]. destruct s as [s| |].
  - cbn [wf_pat] in Hwf. cbn [reach_bad].
    induction IH as [|[k c] cs Hc Hcs IHcs]; [reflexivity|].
    destruct (str_eqb s k); [now apply Hc|assumption].
  - cbn [wf_pat] in Hwf. cbn [reach_bad].
    induction IH as [|[k c] cs Hc Hcs IHcs]; [reflexivity|].
    cbn [snd] in Hc. now rewrite Hc, IHcs.
  - destruct p; [reflexivity|discriminate].
Qed.

Lemma set_data_data s d n : data (set_data s d n) = d.
Proof. reflexivity. Qed.

Lemma nval_set_at_cons {V} k p (e : V) n : nval (set_at (k :: p) e n) = nval n.
Proof. destruct n; reflexivity. Qed.

Lemma nval_del_at_cons {V} k p (n : node V) : nval (del_at (k :: p) n) = nval n.
Proof. destruct n as [v cs]. cbn. now destruct (find_child k cs). Qed.

Definition cset_result (cur : option entry) (v : json) (n : N) (force : bool) : entry :=
  if force then match cur with Some (Cas _ _) => Cas v (n + 1) | _ => Cas v 1 end
  else Cas v (n + 1).

Lemma decide_ok cur new force ex ch e' :
  decide cur new force = DOk ex ch e' ->
  ex = (if cur then true else false) /\
  ch = match cur with Some e => negb (json_eqb (entry_val e) (entry_val new)) | None => true end /\
  e' = match new with Plain v => Plain v | Cas v n => cset_result cur v n force end.
Proof.
  unfold decide, bump, cset_result. intros H.
  (* current entry by new entry by force; the [try]s decide, where they occur, the guards of [decide]: stored version =
     given, version below u64::MAX, version 0 on a key without CAS entry *)
  destruct cur as [[c|c vc]|], new as [v|v n], force; cbn [orb] in H; rewrite ?orb_true_r, ?orb_false_r in H.
  all: try (destruct (N.eqb vc n); [|discriminate]); try (destruct (N.eqb n u64_max); [discriminate|]).
  all: try (destruct (N.eqb_spec n 0) as [->|]; [|discriminate]).
  all: try discriminate H; injection H as <- <- <-; now repeat split.
Qed.

Lemma decide_val cur e f ex ch e' : decide cur e f = DOk ex ch e' -> entry_val e' = entry_val e.
Proof.
  intros H. apply decide_ok in H as (_ & _ & ->). destruct e as [v|v n]; [reflexivity|].
  unfold cset_result. now destruct f, cur as [[c|c vc]|].
Qed.

Lemma decide_plain cur v force ex ch e' :
  decide cur (Plain v) force = DOk ex ch e' -> e' = Plain v.
Proof. intros H. exact (proj2 (proj2 (decide_ok _ _ _ _ _ _ H))). Qed.

Lemma decide_cas cur v n force ex ch e' :
  decide cur (Cas v n) force = DOk ex ch e' -> e' = cset_result cur v n force.
Proof. intros H. exact (proj2 (proj2 (decide_ok _ _ _ _ _ _ H))). Qed.

Lemma decide_set_on_cas c vc v : decide (Some (Cas c vc)) (Plain v) false = DErr E_Cas.
Proof. reflexivity. Qed.

Definition cur_version (cur : option entry) : N :=
  match cur with Some (Cas _ n) => n | _ => 0 end.

Lemma decide_cset cur v n :
  exists ex ch, decide cur (Cas v n) false =
                if n =? cur_version cur then bump v n ex ch else DErr E_CasVersionMismatch.
Proof.
  destruct cur as [[c|c vc]|]; cbn [decide cur_version]; rewrite ?orb_false_r.
  - do 2 eexists. unfold bump. destruct (N.eqb_spec n 0) as [->|]; reflexivity.
  - do 2 eexists. rewrite (N.eqb_sym vc n). reflexivity.
  - do 2 eexists. unfold bump. destruct (N.eqb_spec n 0) as [->|]; reflexivity.
Qed.

Lemma decide_version cur new ex ch e' :
  decide cur new false = DOk ex ch e' ->
  cur_version (Some e') = cur_version cur + match new with Cas _ _ => 1 | Plain _ => 0 end.
Proof.
  destruct new as [v|v n]; intros H.
  - rewrite (decide_plain _ _ _ _ _ _ H). destruct cur as [[c|c vc]|]; [reflexivity|discriminate H|reflexivity].
  - destruct (decide_cset cur v n) as (ex0 & ch0 & E). rewrite E in H.
    destruct (N.eqb_spec n (cur_version cur)) as [->|]; [|discriminate]. unfold bump in H.
    destruct (_ =? u64_max); [discriminate|]. now injection H as _ _ <-.
Qed.

Lemma Inv_set_at s p e n : Inv s -> Forall good_seg p -> p <> [] -> Inv (set_data s (set_at p e (data s)) n).
Proof.
  intros (Hw & Hc & Hg & Hr) Hgp Hne. repeat split; cbn [data set_data].
  - now apply wfn_set_at.
  - now apply cleann_set_at.
  - now apply goodn_set_at.
  - destruct p as [|k p]; [congruence|]. now rewrite nval_set_at_cons.
Qed.

Lemma Inv_del_at s p n : Inv s -> p <> [] -> Inv (set_data s (del_at p (data s)) n).
Proof.
  intros (Hw & Hc & Hg & Hr) Hne. repeat split; cbn [data set_data].
  - now apply wfn_del_at.
  - now apply cleann_del_at.
  - now apply goodn_del_at.
  - destruct p as [|k p]; [congruence|]. now rewrite nval_del_at_cons.
Qed.

Lemma Inv_delm s p n : Inv s -> Inv (set_data s (dr_node (delm (data s) [] p)) n).
Proof.
  intros (Hw & Hc & Hg & Hr). repeat split; cbn [data set_data].
  - now apply wfn_delm.
  - now apply cleann_delm.
  - now apply goodn_delm.
  - pose proof (lookup_delm (data s) [] p [] Hw) as Hl. rewrite !lookup_nil in Hl.
    rewrite Hl, Hr. now destruct (store_match p []).
Qed.

Lemma do_insert_effect s c key e force :
  Inv s ->
  let r := do_insert s c key e force in
  match o_res (snd r) with
  | RUnit => exists p existed changed e',
               parse_segments key = Ok p /\ decide (abs s p) e force = DOk existed changed e' /\
               Inv (fst r) /\ meq (abs (fst r)) (m_set (abs s) p e')
  | RErr _ | RCrash => fst r = s
  | _ => False
  end.
Proof.
  intros HI. unfold do_insert.
  destruct (check_read_only key c); [reflexivity|].
  destruct (parse_segments key) as [p|code] eqn:Ep; [|reflexivity].
  destruct (special_value_bad key (entry_val e)); [reflexivity|].
  destruct (decide (lookup (data s) p) e force) as [existed changed e'| |] eqn:Ed; [|reflexivity|reflexivity].
  cbn [snd fst o_res].
  destruct (parse_segments_good _ _ Ep) as (_ & Hgp & Hne).
  exists p, existed, changed, e'. split; [reflexivity|]. split; [exact Ed|]. split; [now apply Inv_set_at|].
  intros q. apply lookup_set_at.
Qed.

(* delete: unlike the other writes it answers an error from a new state, since a delete that finds nothing still
   stores the pruned tree; that state holds the same map *)
Lemma do_delete_effect s c key :
  Inv s ->
  let r := do_delete s c key in
  match o_res (snd r) with
  | RValue x => exists p e, parse_segments key = Ok p /\ abs s p = Some e /\ x = entry_val e /\
                            Inv (fst r) /\ meq (abs (fst r)) (m_del (abs s) p)
  | RErr code => Inv (fst r) /\ meq (abs (fst r)) (abs s)
  | _ => False
  end.
Proof.
  intros HI. pose proof HI as (Hw & Hc & _). unfold do_delete.
  destruct (check_read_only key c) eqn:Eck; [now split|].
  destruct (parse_segments key) as [p|code] eqn:Ep; [|now split].
  destruct (parse_segments_good _ _ Ep) as (_ & _ & Hne).
  rewrite (proj2 (root_ok_spec _) (cleann_del_at p _ Hc)). cbn [negb].
  assert (Hm : forall n, meq (abs (set_data s (del_at p (data s)) n)) (m_del (abs s) p)).
  { intros n q. now apply lookup_del_at. }
  destruct (lookup (data s) p) as [e|] eqn:El; cbn [snd fst o_res].
  - exists p, e. split; [reflexivity|]. split; [exact El|]. split; [reflexivity|]. split; [now apply Inv_del_at|apply Hm].
  - split; [now apply Inv_del_at|]. intros q. rewrite Hm. unfold m_del.
    destruct (path_eqb_spec p q) as [<-|_]; [now rewrite <- El|reflexivity].
Qed.

Lemma key_of_path k p : parse_segments k = Ok p -> k = key_of p.
Proof. intros H. apply parse_segments_good in H as (-> & _). unfold key_of. now rewrite join_split. Qed.

Lemma key_good (n : node entry) q e :
  goodn n -> nval n = None -> lookup n q = Some e -> q <> [] /\ Forall good_seg q.
Proof.
  intros Hg Hr Hl. split; [|exact (lookup_good _ _ _ Hg Hl)].
  intros ->. rewrite lookup_nil in Hl. congruence.
Qed.

Lemma stored_key_good s q e : Inv s -> abs s q = Some e -> q <> [] /\ Forall good_seg q.
Proof. intros (_ & _ & Hg & Hr). now apply key_good. Qed.

Lemma collect_keys_good (n : node entry) p :
  wfn n -> goodn n -> nval n = None ->
  Forall (fun m => fst m <> [] /\ Forall good_seg (fst m)) (collect n [] p).
Proof.
  intros Hw Hg Hr. apply Forall_forall. intros [q e] Hin.
  apply (collect_spec n [] p q e Hw) in Hin as (k & -> & Hl & _). exact (key_good n k e Hg Hr Hl).
Qed.

Lemma notify_deleted_ok s' (ms : list (list str * entry)) :
  Forall (fun m => fst m <> [] /\ Forall good_seg (fst m)) ms ->
  exists evs, notify_deleted s' ms = Ok evs.
Proof.
  induction 1 as [|m ms [Hne Hg] _ IH]; [now exists []|].
  destruct IH as (evs & IH). cbn [notify_deleted]. unfold key_of.
  rewrite (parse_join_good _ Hne Hg), IH. eauto.
Qed.

Lemma do_pdelete_effect s c pat :
  Inv s ->
  let r := do_pdelete s c false pat in
  match o_res (snd r) with
  | RKvs l => Inv (fst r) /\ meq (abs (fst r)) (m_pdel (abs s) (kseg_parse pat)) /\
              l = map kv_of (collect (data s) [] (kseg_parse pat))
  | RErr _ => fst r = s
  | _ => False
  end.
Proof.
  intros HI. pose proof HI as (Hw & Hc & _). unfold do_pdelete.
  destruct (check_read_only pat c); [reflexivity|].
  destruct (reach_bad (data s) (kseg_parse pat)); [reflexivity|].
  set (p := kseg_parse pat).
  rewrite (proj2 (root_ok_spec _) (cleann_delm _ [] p Hc)). cbn [negb].
  rewrite delm_matches.
  set (s' := set_data s _ _).
  destruct (notify_deleted_ok s' (collect (data s) [] p)) as (evs & Hn); [apply collect_keys_good; apply HI|].
  rewrite Hn. cbn [snd fst o_res]. split; [now apply Inv_delm|]. split; [|reflexivity].
  intros q. now apply lookup_delm.
Qed.

Lemma kvs_collect_spec s p k v :
  Inv s ->
  (In (k, v) (map kv_of (collect (data s) [] p)) <->
   exists q e, k = join slash q /\ v = entry_val e /\ abs s q = Some e /\ store_match p q = true).
Proof.
  intros (Hw & _). rewrite in_map_iff. split.
  - intros ([q e] & [= <- <-] & Hin). apply (collect_spec _ _ _ _ _ Hw) in Hin as (k' & -> & Hl & Hm).
    now exists k', e.
  - intros (q & e & -> & -> & Hl & Hm). exists (q, e). split; [reflexivity|].
    apply (collect_spec _ _ _ _ _ Hw). now exists q.
Qed.

Lemma do_pget_spec s pat :
  Inv s ->
  match do_pget s pat with
  | Ok l => forall k v, In (k, v) l <->
              exists q e, k = join slash q /\ v = entry_val e /\ abs s q = Some e /\
                          store_match (kseg_parse pat) q = true
  | Err c => c = E_IllegalMultiWildcard /\ wf_pat (kseg_parse pat) = false
  end.
Proof.
  intros HI. unfold do_pget. destruct (reach_bad (data s) (kseg_parse pat)) eqn:Eb.
  - split; [reflexivity|]. destruct (wf_pat (kseg_parse pat)) eqn:Ew; [|reflexivity].
    now rewrite (reach_bad_wf _ _ Ew) in Eb.
  - intros k v. now apply kvs_collect_spec.
Qed.

(* an imported tree is a HashMap at every level, with regular segment names and no value at the (unaddressable) root *)
Definition good_import (other : node entry) : Prop :=
  wfn other /\ goodn other /\ nval other = None.

(* Store::merge strips $SYS from what it is given (F29); what is left is still such a tree *)
Lemma good_import_strip other : good_import other -> good_import (strip_sys s_SYS other).
Proof.
  destruct other as [v cs]. intros (Hw & Hg & Hv). unfold strip_sys. cbn [nval nkids] in *.
  split; [now apply (wfn_filter v)|]. split; [|exact Hv]. apply goodn_filter. now apply goodn_unfold in Hg.
Qed.

Lemma nval_merge n other : nval other = None -> nval (merge n other) = nval n.
Proof.
  destruct other as [ov ocs]. cbn [nval]. intros ->. rewrite merge_unfold. cbn zeta.
  now destruct ocs.
Qed.

Lemma Inv_merge s other n : Inv s -> good_import other -> Inv (set_data s (merge (data s) other) n).
Proof.
  intros (Hw & Hc & Hg & Hr) (Hwo & Hgo & Hro). repeat split; cbn [data set_data].
  - now apply wfn_merge.
  - now apply cleann_merge.
  - now apply goodn_merge.
  - now rewrite nval_merge.
Qed.

Lemma notify_imported_ok s' (ins : list (list str * entry * bool)) :
  Forall (fun x => fst (fst x) <> [] /\ Forall good_seg (fst (fst x))) ins -> exists evs, notify_imported s' ins = Ok evs.
Proof.
  induction 1 as [|[[p e] ch] ins [Hne Hg] _ IH]; [now exists []|]. cbn [fst] in Hne, Hg.
  destruct IH as (evs & IH). cbn [notify_imported]. unfold import_key, key_of.
  rewrite (parse_join_good _ Hne Hg), IH. eauto.
Qed.

Lemma do_import_effect s j :
  Inv s ->
  (forall other, dec_persisted j = Some other -> good_import other) ->
  let r := do_import s j in
  match o_res (snd r) with
  | RImported _ => exists other, dec_persisted j = Some other /\ Inv (fst r) /\
                                 meq (abs (fst r)) (m_import (abs s) (strip_sys s_SYS other))
  | RErr _ => fst r = s
  | _ => False
  end.
Proof.
  intros HI Hgood. unfold do_import.
  destruct (dec_persisted j) as [other0|] eqn:Ed; [|reflexivity].
  cbv zeta. set (other := strip_sys s_SYS other0).
  pose proof (good_import_strip other0 (Hgood other0 eq_refl)) as Hgi. fold other in Hgi.
  pose proof Hgi as (Hwo & Hgo & Hro).
  set (s' := set_data s _ _).
  destruct (notify_imported_ok s' (insertions (data s) other)) as (evs & Hn).
  { apply Forall_map. rewrite entries_collect. now apply collect_keys_good. }
  rewrite Hn. cbn [snd fst o_res]. exists other0. split; [reflexivity|]. split; [now apply Inv_merge|].
  intros q. apply lookup_merge; [apply HI|exact Hwo].
Qed.

Lemma prefixed_iff k : starts_with s_SYS_prefix k = true <-> exists y r, split slash k = s_SYS :: y :: r.
Proof.
  split.
  - intros H. destruct (starts_with_app _ _ H) as [t ->]. unfold split.
    change s_SYS_prefix with (s_SYS ++ [slash]). rewrite <- app_assoc, split_aux_app_nosep.
    + cbn [app split_aux]. rewrite N.eqb_refl. fold (split slash t).
      destruct (split slash t) as [|y r] eqn:E; [now elim (split_nonempty slash t)|]. now exists y, r.
    + now apply no_sep_forallb.
  - intros (y & r & H). rewrite <- (join_split slash k), H. reflexivity.
Qed.

(* the keys under $SYS/clients as raw strings: a client's name is a literal segment and holds no separator *)
Lemma kseg_client_str c : kseg_of_str (client_str c) = Reg (client_str c).
Proof. unfold client_str. destruct (N.eqb c 0); [reflexivity|]. unfold uuid_prefix. cbn [app]. reflexivity. Qed.

Lemma hexdig_no_slash a : hexdig a <> slash.
Proof. unfold hexdig, slash. destruct (N.ltb a 10); lia. Qed.

Lemma client_str_nosep c : no_sep slash (client_str c).
Proof.
  apply no_sep_forallb. unfold client_str. destruct (N.eqb c 0); [reflexivity|].
  rewrite forallb_app. change (forallb _ uuid_prefix) with true. cbn [forallb andb].
  now rewrite !(proj2 (N.eqb_neq _ _) (hexdig_no_slash _)).
Qed.

Lemma split_sys_topic l :
  Forall (no_sep slash) l -> split slash (topic (s_SYS :: s_clients :: l)) = s_SYS :: s_clients :: l.
Proof.
  intros Hl. unfold topic. apply split_join; [discriminate|].
  repeat (apply Forall_cons; [now apply no_sep_forallb|]). exact Hl.
Qed.

Lemma split_client_topic c leaf : no_sep slash leaf ->
  split slash (topic [s_SYS; s_clients; client_str c; leaf]) = [s_SYS; s_clients; client_str c; leaf].
Proof. intros Hl. apply split_sys_topic. repeat constructor; [apply client_str_nosep|exact Hl]. Qed.
