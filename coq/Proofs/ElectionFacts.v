(* C19, the orchestrator's election (Model/Election.v).  The invariant [K] splits the history into what came before the running
   vote round and the events since, and says that every counted vote is among the latter.  A node decides Leader only
   with a quorum of votes of its own round ([leader_needs_quorum]), becomes Follower only of a member that asked
   ([follower_only_member]); votes of strangers, repeated votes and messages that do not fit the phase change
   nothing. *)
From WB Require Import Base.Str Base.StrFacts Model.Election Proofs.StoreFacts.
From Coq Require Import ZArith Lia List.
Import ListNotations.
Local Open Scope N_scope.
Local Arguments N.add : simpl never.

Lemma mem_In x l : mem x l = true <-> In x l.
Proof. apply existsb_str_In. Qed.

Definition is_done (s : est) : bool := match ph s with Done _ => true | _ => false end.

Lemma estep_done s e : is_done s = true -> estep s e = (s, []).
Proof. unfold is_done, estep. destruct (ph s); try discriminate. reflexivity. Qed.

Lemma estep_recv s m : estep s (ERecv m) = recv s m.
Proof. unfold estep, recv. destruct (ph s) as [|[]| |]; reflexivity. Qed.

Lemma erun_app es1 : forall s es2, erun s (es1 ++ es2) = erun (erun s es1) es2.
Proof. induction es1 as [|e es1 IH]; intros s es2; [reflexivity|]. cbn. apply IH. Qed.

Lemma default_quorum_majority ps q :
  sanity None ps = Some q -> N.of_nat (length ps) + 1 < 2 * q.
Proof.
  unfold sanity. set (n := N.of_nat (length ps) + 1).
  destruct (N.ltb_spec n (n / 2 + 1)); [discriminate|]. intros E. injection E as <-.
  pose proof (N.mod_lt n 2 ltac:(lia)). pose proof (N.div_mod' n 2). lia.
Qed.

Lemma sanity_le_n qc ps q : sanity qc ps = Some q -> q <= N.of_nat (length ps) + 1.
Proof.
  unfold sanity. set (n := N.of_nat (length ps) + 1).
  destruct (N.ltb_spec n (match qc with Some q0 => q0 | None => n / 2 + 1 end)); [discriminate|].
  intros E. injection E as <-. exact H.
Qed.

(* the running vote round as a piece of the history [h]: it started in the state reached after [pre], [r] arrived since *)
Definition counts (p : phase) : bool :=
  match p with Requesting _ _ _ | Done Leader => true | _ => false end.

Definition voted (r : list event) (x : str) : Prop := In (ERecv (VoteResp x)) r.

Definition K (s0 : est) (h : list event) (s : est) : Prop :=
  match ph s with
  | Requesting v rem voters =>
      exists pre r, h = pre ++ r /\ peers (erun s0 pre) = peers s /\ quorum (erun s0 pre) = quorum s /\
        v = 1 + N.of_nat (length voters) /\ NoDup voters /\ incl voters (peers s) /\ incl rem (peers s) /\
        (forall x, In x voters -> ~ In x rem) /\ (forall x, In x voters -> voted r x)
  | Done Leader =>
      exists pre r post P, h = pre ++ r ++ post /\ peers (erun s0 pre) = peers s /\ quorum (erun s0 pre) = quorum s /\
        NoDup P /\ incl P (peers s) /\ (forall x, In x P -> voted r x) /\ quorum s <= 1 + N.of_nat (length P)
  | _ => True
  end.

Lemma apply_peers_ph s ps : ph (apply_peers s ps) = Waiting \/ ph (apply_peers s ps) = Done Failed.
Proof. unfold apply_peers. destruct (sanity _ _); cbn; auto. Qed.

Lemma new_round_ph s : ph (new_round s) = Waiting \/ ph (new_round s) = Done Failed.
Proof. unfold new_round. destruct (pending s); [apply apply_peers_ph|cbn; auto]. Qed.

Lemma quiet_apply s ps : counts (ph (apply_peers s ps)) = false.
Proof. now destruct (apply_peers_ph s ps) as [-> | ->]. Qed.

Lemma quiet_round s : counts (ph (new_round s)) = false.
Proof. now destruct (new_round_ph s) as [-> | ->]. Qed.

Lemma K_quiet s0 h s : counts (ph s) = false -> K s0 h s.
Proof. unfold K. now destruct (ph s) as [| | |[]]. Qed.

Lemma start_requesting_K s0 h s : erun s0 h = fst (start_requesting s) -> K s0 h (fst (start_requesting s)).
Proof.
  unfold start_requesting. destruct (pending s) as [ps|].
  - intros _. cbn [fst]. apply K_quiet, quiet_apply.
  - destruct (N.leb_spec (quorum s) 1) as [Hq|Hq]; cbn [fst]; intros Hrun; unfold K; cbn.
    + exists h, [], [], []. rewrite Hrun, !app_nil_r. repeat split; try constructor; try easy; cbn; lia.
    + exists h, []. rewrite Hrun, app_nil_r. repeat split; try constructor; try easy; intros x Hx; exact Hx.
Qed.

Lemma filter_neq_incl (id : str) rem : incl (filter (fun x => negb (str_eqb x id)) rem) rem.
Proof. intros x Hx. apply filter_In in Hx. tauto. Qed.

Lemma filter_neq_not_in (id : str) rem : ~ In id (filter (fun x => negb (str_eqb x id)) rem).
Proof. intros H. apply filter_In in H as [_ H]. now rewrite str_eqb_refl in H. Qed.

Definition idle (p : phase) : bool := match p with Waiting | WaitHb _ _ _ => true | _ => false end.

Lemma idle_step s e :
  idle (ph s) = true -> counts (ph (fst (estep s e))) = false \/ fst (estep s e) = fst (start_requesting s).
Proof.
  intros Hi. destruct e as [m| |ps].
  - left. rewrite estep_recv. unfold recv.
    destruct (ph s) eqn:Hph; try discriminate Hi; destruct m; try destruct (prio_ge _ _); try destruct (is_part_of_cluster _ _);
      cbn [fst set_ph ph]; rewrite ?Hph; reflexivity.
  - unfold estep. destruct (ph s) as [|[]| |]; try discriminate Hi; [now right|left; apply quiet_round|now right].
  - left. unfold estep. destruct (ph s) as [|[]| |] eqn:Hph; try discriminate Hi; try apply quiet_apply.
    cbn [fst]. destruct (pending s); cbn [ph]; rewrite ?Hph; reflexivity.
Qed.

Lemma requesting_step s e v rem voters :
  ph s = Requesting v rem voters ->
  counts (ph (fst (estep s e))) = false \/ fst (estep s e) = s \/
  exists id, e = ERecv (VoteResp id) /\ In id rem /\
    fst (estep s e) = set_ph s (if N.leb (quorum s) (v + 1) then Done Leader
                                else Requesting (v + 1) (filter (fun x => negb (str_eqb x id)) rem) (id :: voters)).
Proof.
  intros Hph. destruct e as [m| |ps].
  - rewrite estep_recv. unfold recv. rewrite Hph. destruct m as [id p|id|id|id| | ]; cbn [fst]; auto.
    + destruct (prio_ge p (prio s)); cbn [fst]; auto.
    + destruct (mem id rem) eqn:Hm; [|auto]. right. right. exists id. apply mem_In in Hm. now destruct (N.leb _ _).
  - left. unfold estep. rewrite Hph. apply quiet_round.
  - left. unfold estep. rewrite Hph. apply quiet_apply.
Qed.

Lemma K_step s0 h s e : erun s0 h = s -> K s0 h s -> K s0 (h ++ [e]) (fst (estep s e)).
Proof.
  intros Hrun HK. destruct (ph s) as [|fr cand cp|v rem voters|o] eqn:Hph.
  1,2: destruct (idle_step s e ltac:(now rewrite Hph)) as [E|E]; [now apply K_quiet|];
       rewrite E; apply start_requesting_K; now rewrite erun_app, Hrun.
  - unfold K in HK. rewrite Hph in HK.
    destruct HK as (pre & r & -> & Hp & Hq & Hv & Hnd & Hin & Hrem & Hdis & Hvoted). rewrite <- app_assoc.
    assert (Hmore : forall x, In x voters -> voted (r ++ [e]) x) by (intros x Hx; apply in_or_app; left; now apply Hvoted).
    destruct (requesting_step s e v rem voters Hph) as [E|[E|(id & -> & Hm & E)]]; [now apply K_quiet|rewrite E..].
    + unfold K. rewrite Hph. exists pre, (r ++ [e]). repeat split; assumption.
    + assert (Hnew : ~ In id voters) by (intros Hc; exact (Hdis _ Hc Hm)).
      assert (Hvoted' : forall x, In x (id :: voters) -> voted (r ++ [ERecv (VoteResp id)]) x).
      { intros x [<-|Hx]; [apply in_or_app; right; now left|now apply Hmore]. }
      pose proof (incl_cons (Hrem _ Hm) Hin) as Hin'.
      destruct (N.leb_spec (quorum s) (v + 1)) as [Hle|Hlt]; cbn [set_ph ph counts]; unfold K; cbn.
      * exists pre, (r ++ [ERecv (VoteResp id)]), [], (id :: voters). rewrite app_nil_r.
        repeat split; try assumption; [now constructor|cbn [length]; lia].
      * exists pre, (r ++ [ERecv (VoteResp id)]). repeat split; try assumption.
        -- cbn [length]. lia.
        -- now constructor.
        -- exact (incl_tran (filter_neq_incl id rem) Hrem).
        -- intros x [<-|Hx] Hc; [now apply filter_neq_not_in in Hc|]. apply filter_neq_incl in Hc. exact (Hdis _ Hx Hc).
  - rewrite estep_done by (unfold is_done; now rewrite Hph). cbn [fst]. unfold K in *. rewrite Hph in *.
    destruct o; try exact I. destruct HK as (pre & r & post & P & -> & HK). exists pre, r, (post ++ [e]), P.
    split; [now rewrite <- !app_assoc|exact HK].
Qed.

Lemma K_run s0 es : forall h, K s0 h (erun s0 h) -> K s0 (h ++ es) (erun s0 (h ++ es)).
Proof.
  induction es as [|e es IH]; intros h H; [now rewrite app_nil_r|].
  replace (h ++ e :: es) with ((h ++ [e]) ++ es) by now rewrite <- app_assoc.
  apply IH. rewrite erun_app. now apply K_step.
Qed.

(* C19: the leader role needs a quorum of distinct configured peers' votes of the running round *)
Theorem leader_needs_quorum s0 es :
  ph s0 = Waiting ->
  ph (erun s0 es) = Done Leader ->
  exists pre round post P,
    es = pre ++ round ++ post /\
    (* the vote round that made it leader started in the state reached after [pre], nothing in [post] was looked at *)
    peers (erun s0 pre) = peers (erun s0 es) /\ quorum (erun s0 pre) = quorum (erun s0 es) /\
    NoDup P /\ incl P (peers (erun s0 es)) /\ (forall x, In x P -> In (ERecv (VoteResp x)) round) /\
    quorum (erun s0 es) <= 1 + N.of_nat (length P).
Proof.
  intros H0 HL. assert (HK : K s0 es (erun s0 es)) by (apply (K_run s0 es []); unfold K; cbn; now rewrite H0).
  unfold K in HK. now rewrite HL in HK.
Qed.

Lemma vote_ignored s id :
  (match ph s with Requesting _ rem _ => ~ In id rem | _ => True end) ->
  estep s (ERecv (VoteResp id)) = (s, []).
Proof.
  rewrite estep_recv. unfold recv. destruct (ph s) as [| |v rem voters|o]; try reflexivity.
  intros Hn. destruct (mem id rem) eqn:Hm; [|reflexivity]. apply mem_In in Hm. contradiction.
Qed.

Lemma counted_once s id v rem voters :
  ph s = Requesting v rem voters -> In id rem ->
  match ph (fst (estep s (ERecv (VoteResp id)))) with
  | Requesting v' rem' _ => v' = v + 1 /\ ~ In id rem'
  | Done Leader => quorum s <= v + 1
  | _ => False
  end.
Proof.
  intros Hph Hin. rewrite estep_recv. unfold recv. rewrite Hph. apply mem_In in Hin. rewrite Hin.
  destruct (N.leb_spec (quorum s) (v + 1)); cbn; [assumption|]. split; [reflexivity|apply filter_neq_not_in].
Qed.

Lemma apply_peers_nf s ps id : ph (apply_peers s ps) <> Done (Follower id).
Proof. destruct (apply_peers_ph s ps) as [-> | ->]; discriminate. Qed.

Lemma new_round_nf s id : ph (new_round s) <> Done (Follower id).
Proof. destruct (new_round_ph s) as [-> | ->]; discriminate. Qed.

Lemma start_requesting_nf s id : ph (fst (start_requesting s)) <> Done (Follower id).
Proof. unfold start_requesting. destruct (pending s); [apply apply_peers_nf|]. now destruct (N.leb _ _). Qed.

Lemma follower_step s e id :
  is_done s = false -> ph (fst (estep s e)) = Done (Follower id) ->
  e = ERecv (HbReq id) /\ peers (fst (estep s e)) = peers s.
Proof.
  unfold is_done. intros Hd. destruct e as [m| |ps].
  - (* phase by message: the one branch of [recv] that ends in [Done (Follower _)] is a heartbeat request *)
    rewrite estep_recv. unfold recv. destruct (ph s) as [| |v rem vs|o] eqn:Hph; [| | |discriminate Hd];
      destruct m as [i p|i|i|i| | ]; try destruct (prio_ge _ _); try destruct (is_part_of_cluster _ _);
      try (destruct (mem i rem); [destruct (N.leb _ _)|]); cbn [fst set_ph ph peers]; rewrite ?Hph; try discriminate;
      intros [= ->]; auto.
  - intros H. exfalso. revert H. unfold estep. destruct (ph s) as [|[]| |]; [apply start_requesting_nf|apply new_round_nf|apply start_requesting_nf|apply new_round_nf|discriminate Hd].
  - intros H. exfalso. revert H. unfold estep. destruct (ph s) as [|[]| |] eqn:Hph; try apply apply_peers_nf; [|discriminate Hd].
    cbn [fst]. destruct (pending s); cbn [ph]; rewrite ?Hph; discriminate.
Qed.

(* follower mode: only towards a configured peer, and only on that peer's heartbeat request *)
Theorem follower_only_member s e id :
  started s = NoServer ->
  started (fst (estep s e)) = FollowerServer id ->
  e = ERecv (HbReq id) /\ In id (peers s).
Proof.
  intros H0 H1.
  assert (Hd : is_done s = false).
  { destruct (is_done s) eqn:Hd; [|reflexivity]. rewrite estep_done in H1 by exact Hd. cbn [fst] in H1. congruence. }
  unfold started in H1. destruct (ph (fst (estep s e))) as [| | |[|x|]] eqn:Hph; try discriminate.
  destruct (mem x (peers (fst (estep s e)))) eqn:Hm; [|discriminate]. injection H1 as ->.
  destruct (follower_step s e id Hd Hph) as [-> Hp]. split; [reflexivity|]. rewrite Hp in Hm. now apply mem_In.
Qed.

Lemma foreign_ignored s m :
  (match m with
   | HbResp _ | Empty => True
   | HbReq id => ph s = Waiting /\ is_part_of_cluster s id = false \/ (exists v r vs, ph s = Requesting v r vs)
   | VoteResp id => match ph s with Requesting _ rem _ => ~ In id rem | _ => True end
   | VoteReq _ p => prio_ge p (prio s) = false /\ (forall f c q, ph s <> WaitHb f c q) \/ (exists f c q, ph s = WaitHb f c q)
   | Garbage => False
   end) ->
  estep s (ERecv m) = (s, []).
Proof.
  destruct m as [i p|i|i|i| | ]; intros H; try contradiction; [| now apply vote_ignored | | | ];
    rewrite estep_recv; unfold recv; destruct (ph s) as [|fr c0 q0|v rem voters|o] eqn:Hph; try reflexivity.
  - destruct H as [[-> _]|(f & c1 & q1 & E)]; [reflexivity|discriminate].
  - destruct H as [[-> _]|(f & c1 & q1 & E)]; [reflexivity|discriminate].
  - destruct H as [[_ ->]|(v & r & vs & E)]; [reflexivity|discriminate].
  - destruct H as [[E _]|(v & r & vs & E)]; discriminate.
Qed.
