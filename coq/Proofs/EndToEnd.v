(* C20 + C13 + C01, composed: a call on the client library, carried by the session layer to the store and back.
   For the reading calls the typed result the caller gets is what the store holds; for the writing calls an Ok means the
   store holds the value afterwards.  The composition itself (command -> message -> handle -> messages -> callbacks) is the
   one the client driver of the correspondence check runs (ocaml/client_driver.ml to_server / do_call). *)
From Coq Require Import Lia List.
Import ListNotations.
From WB Require Import Base.Str Base.StrFacts Base.Json Model.Key Model.Consts Model.Store Model.Match Model.Subs Model.Entry Model.Core
  Model.CodecConsts Model.Codec Model.Auth Model.Session Model.Client Spec.MapSpec
  Base.ListFacts Proofs.StoreFacts Proofs.TreeInv Proofs.GoodNames Proofs.CoreFacts Proofs.SessionFacts Proofs.ClientFacts Proofs.SubsFacts Proofs.C03Proof Proofs.StreamProof Proofs.C17Proof.
Local Open Scope N_scope.

Definition served (w : world) (sn : N) (s : sess) : Prop :=
  lookup_n sn (w_sess w) = Some s /\ ss_open s = true /\ w_auth_required w = false.

Definition Fresh (c : cstate) : Prop :=
  forall t, next_tid c <= t ->
    cb_find t (ack c) = None /\ cb_find t (state c) = None /\ cb_find t (cstate_ c) = None /\ cb_find t (pstate c) = None /\
    cb_find t (lsstate c) = None /\ cb_find t (sub c) = None /\ cb_find t (psub c) = None /\ cb_find t (subls c) = None.

Lemma Fresh_init : Fresh cinit.
Proof. intros t _. repeat split; reflexivity. Qed.

Definition round_trip (w : world) (c : cstate) (sn call : N) (cmd : ccmd) : world * cstate * list delivery * verdict :=
  let '(c1, m, _) := on_cmd c call cmd in
  let '(w1, out, v) := handle w sn m in
  let mine := map snd (filter (fun x => N.eqb (fst x) sn) out) in
  let '(c2, ds) := fold_left (fun acc sm => let '(c', d') := on_msg (fst acc) sm in (c', snd acc ++ d')) mine (c1, []) in
  (w1, c2, ds, v).

Definition get_spec (m : mstate) (k : str) : cresult :=
  match parse_segments k with
  | Err code => CRErr code
  | Ok p => match m p with Some e => CRVal (entry_val e) | None => CRNone end
  end.

Lemma parse_err_code k code : parse_segments k = Err code -> code = E_IllegalWildcard \/ code = E_IllegalMultiWildcard.
Proof.
  unfold parse_segments. generalize (split slash k). intros l. revert code. induction l as [|s l IH]; intros code; cbn [regular_segments]; [discriminate|].
  destruct (kseg_of_str s); [| |]; try (intros [= <-]; auto).
  destruct (regular_segments l) as [rs|e] eqn:E; [discriminate|]. intros [= <-]. now apply IH.
Qed.

Lemma handle_read w sn s m o :
  served w sn s -> op_of (cid_of sn) m = Some o ->
  (N.eqb (ss_proto s) 0 && v1_only m)%bool = false -> (match m with MTransform _ _ _ => false | _ => true end) = true ->
  (match m with MProtocolSwitchRequest _ | MAuthorizationRequest _ => false | _ => true end) = true ->
  (match m with MSubscribe _ _ _ _ | MPSubscribe _ _ _ _ _ | MSubscribeLs _ _ | MAcquireLock _ _ => false | _ => true end) = true ->
  let '(core', out) := step (w_core w) o in
  handle w sn m = (World core' (w_auth_required w) (w_sess w) (w_chan w) (w_reqs w),
                   route_events (World core' (w_auth_required w) (w_sess w) (w_chan w) (w_reqs w)) out ++ map (fun x => (sn, x)) (answer m (o_res out)), Continue).
Proof.
  intros (Hl & Ho & Ha) Hop Hv1 Htr Hps Hsub.
  assert (Hni : not_impl s m = false) by (unfold not_impl; rewrite Hv1; clear - Htr; destruct m; try discriminate Htr; reflexivity).
  rewrite (handle_request w sn m s Hl Hps). unfold on_request, denied. rewrite Hni, (serve_some w sn m o Hop). unfold after_request. rewrite Ha.
  (* the request is none of the four kinds that register a channel or a pending acquire *)
  destruct m; try discriminate; now destruct (step (w_core w) o) as [core' out].
Qed.

Lemma filter_mine sn (l : list smsg) : map snd (filter (fun x : N * smsg => N.eqb (fst x) sn) (map (fun x => (sn, x)) l)) = l.
Proof. induction l as [|x l IH]; [reflexivity|]. cbn [map filter fst]. rewrite N.eqb_refl. cbn [map snd]. now rewrite IH. Qed.

Lemma round_trip_one w c sn call cmd w1 out v a :
  handle w sn (snd (fst (on_cmd c call cmd))) = (w1, out, v) ->
  map snd (filter (fun x : N * smsg => N.eqb (fst x) sn) out) = [a] ->
  round_trip w c sn call cmd = (w1, fst (on_msg (fst (fst (on_cmd c call cmd))) a), snd (on_msg (fst (fst (on_cmd c call cmd))) a), v).
Proof.
  unfold round_trip. destruct (on_cmd c call cmd) as [[c1 m] tk]. cbn [fst snd]. intros -> ->.
  cbn [fold_left fst snd app]. now destruct (on_msg c1 a).
Qed.

Lemma Fresh_maps c : Fresh c <-> forall k t, next_tid c <= t -> cb_find t (get_map k c) = None.
Proof.
  split.
  - intros Hf k t Ht. destruct (Hf t Ht) as (H1 & H2 & H3 & H4 & H5 & H6 & H7 & H8). destruct k as [[]| | |]; assumption.
  - intros H t Ht. pose proof (fun k => H k t Ht) as G.
    exact (conj (G (Slot SlAck)) (conj (G (Slot SlState)) (conj (G (Slot SlCState)) (conj (G (Slot SlPState))
          (conj (G (Slot SlLsState)) (conj (G Sub) (conj (G PSub) (G SubLs)))))))).
Qed.

Lemma Fresh_msg c m : Fresh c -> Fresh (fst (on_msg c m)).
Proof.
  rewrite !Fresh_maps. intros Hf k t Ht. rewrite next_tid_msg in Ht. rewrite on_msg_map.
  destruct (tid_of_smsg m); [|now apply Hf]. destruct (clears k m); [apply cb_find_remove_none|]; now apply Hf.
Qed.

Lemma Fresh_cmd c call cmd : Fresh c -> key_tid c cmd < next_tid c + 1 -> Fresh (fst (fst (on_cmd c call cmd))).
Proof.
  rewrite !Fresh_maps. intros Hf Hk k t Ht. rewrite next_tid_grows in Ht.
  rewrite other_cmd_keeps by lia. apply Hf. lia.
Qed.

(* the awaited calls that are answered in their own step *)
Definition plain_call (cmd : ccmd) : bool :=
  match cmd with
  | CSet _ _ | CCSet _ _ _ | CGet _ | CCGet _ | CPGet _ | CDelete _ | CPDelete _ _ | CLs _ | CPLs _ | CPublish _ _
  | CSPubInit _ | CLock _ | CReleaseLock _ => true
  | _ => false
  end.

Definition own_slot_only (c1 : cstate) (sl : slot) (t call : N) : Prop :=
  cb_find t (get_slot sl c1) = Some call /\ forall k, k <> Slot sl -> cb_find t (get_map k c1) = None.

Lemma plain_files cmd sl k : plain_call cmd = true -> slot_of cmd = Some sl -> k <> Slot sl -> filing_of cmd k = Keep.
Proof. destruct cmd; try discriminate; intros _ [= <-] Hne; destruct k as [[]| | |]; try reflexivity; now elim Hne. Qed.

Lemma fresh_registers c call cmd sl :
  Fresh c -> plain_call cmd = true -> slot_of cmd = Some sl ->
  own_slot_only (fst (fst (on_cmd c call cmd))) sl (next_tid c) call.
Proof.
  rewrite Fresh_maps. intros Hf Hp Hsl. split; [now apply slot_registered|].
  intros k Hne. rewrite on_cmd_map, (plain_files cmd sl k Hp Hsl Hne). apply Hf, N.le_refl.
Qed.

Lemma answer_exact c1 sl t call a :
  own_slot_only c1 sl t call -> tid_of_smsg a = Some t -> serves sl a = true ->
  snd (on_msg c1 a) = [DAnswer call a] /\ cb_find t (get_slot sl (fst (on_msg c1 a))) = None.
Proof.
  intros (Hreg & Hoth) Ht Hs. split; [|now apply (answer_delivered c1 a sl t call)].
  rewrite (on_msg_out c1 a t Ht), (events_none c1 a t sl Ht Hoth), app_nil_r. exact (answers_own c1 a t sl call Hs Hreg Hoth).
Qed.

Definition no_channels (w : world) (sn : N) : Prop :=
  (forall inst x, lookup_n inst (w_chan w) = Some x -> fst (fst x) <> sn) /\
  (forall r x, lookup_n r (w_reqs w) = Some x -> fst x <> sn).

Lemma route_not_mine w out sn : no_channels w sn -> filter (fun x : N * smsg => N.eqb (fst x) sn) (route_events w out) = [].
Proof.
  intros (Hc & Hr). apply filter_none. intros [sn' msg] Hin. cbn [fst]. destruct (N.eqb_spec sn' sn) as [->|]; [exfalso|reflexivity].
  apply routed_event_id in Hin as [(inst & t & k & E & _)|(r & t & E & _)]; [exact (Hc _ _ E eq_refl)|exact (Hr _ _ E eq_refl)].
Qed.

Lemma answer_serves cmd sl c call sn core o a :
  plain_call cmd = true -> slot_of cmd = Some sl -> op_of (cid_of sn) (snd (fst (on_cmd c call cmd))) = Some o ->
  answer (snd (fst (on_cmd c call cmd))) (o_res (snd (step core o))) = [a] -> serves sl a = true.
Proof.
  intros Hp Hsl Hop. destruct cmd; try discriminate Hp; injection Hsl as <-; cbn [on_cmd fst snd op_of] in *; injection Hop as <-;
    cbn [step snd o_res out_res]; intros Ha.
  (* set, cset, publish, spubInit, lock, release: the answer is read off the result alone; the others unfold their request *)
  1, 2, 10-13: (destruct (o_res _); try discriminate Ha; injection Ha as <-; reflexivity).
  - unfold do_get in Ha. destruct (parse_segments k); [destruct (lookup _ _)|]; injection Ha as <-; reflexivity.
  - unfold do_cget in Ha. destruct (parse_segments k); [destruct (lookup _ _) as [[?|? ?]|]|]; injection Ha as <-; reflexivity.
  - destruct (do_pget core p); injection Ha as <-; reflexivity.
  - unfold do_delete in Ha. destruct (check_read_only k (cid_of sn)); [|destruct (parse_segments k)]; [| |].
    1, 3: injection Ha as <-; reflexivity.
    destruct (negb (root_ok _)); [discriminate Ha|]. destruct (lookup _ _); injection Ha as <-; reflexivity.
  - unfold do_pdelete in Ha. destruct (check_read_only p (cid_of sn)); [|destruct (reach_bad _ _)].
    1, 2: injection Ha as <-; reflexivity.
    destruct (negb (root_ok _)); [discriminate Ha|]. destruct (notify_deleted _ _); injection Ha as <-; reflexivity.
  - unfold do_ls in Ha. destruct parent; [destruct (ls_at _ _)|]; injection Ha as <-; reflexivity.
  - unfold do_pls in Ha. destruct parent; [destruct (reach_multi _ _)|]; injection Ha as <-; reflexivity.
Qed.

(* the message of a plain call is one the handler serves in one step *)
Lemma plain_msg c call cmd : plain_call cmd = true ->
  let m := snd (fst (on_cmd c call cmd)) in
  (match m with MTransform _ _ _ => false | _ => true end) = true /\
  (match m with MProtocolSwitchRequest _ | MAuthorizationRequest _ => false | _ => true end) = true /\
  (match m with MSubscribe _ _ _ _ | MPSubscribe _ _ _ _ _ | MSubscribeLs _ _ | MAcquireLock _ _ => false | _ => true end) = true /\
  forall r, match m, r with MAcquireLock _ _, RReq _ => False | _, _ => True end.
Proof. destruct cmd; try discriminate; intros _; repeat split; now destruct r. Qed.

Lemma tid_of_cmsg_tid m t : tid_of_cmsg m = Some t -> tid_of m = t.
Proof. destruct m; try discriminate; now intros [= <-]. Qed.

Definition result_in (ds : list delivery) (cmd : ccmd) (call : N) : cresult :=
  match ds with [DAnswer call' a] => if N.eqb call call' then result_of cmd a else CRUnexpected | _ => CRUnexpected end.

Lemma result_in_own call a cmd : result_in [DAnswer call a] cmd call = result_of cmd a.
Proof. unfold result_in. now rewrite N.eqb_refl. Qed.

(* the call's answer is the only message on the session's wire *)
Lemma call_answered w c sn s call cmd sl o :
  served w sn s -> Fresh c -> plain_call cmd = true -> slot_of cmd = Some sl ->
  let m := snd (fst (on_cmd c call cmd)) in
  op_of (cid_of sn) m = Some o -> (N.eqb (ss_proto s) 0 && v1_only m)%bool = false ->
  o_res (snd (step (w_core w) o)) <> RCrash ->
  filter (fun x : N * smsg => N.eqb (fst x) sn) (route_events (set_core w (fst (step (w_core w) o))) (snd (step (w_core w) o))) = [] ->
  exists a c2,
    round_trip w c sn call cmd = (set_core w (fst (step (w_core w) o)), c2, [DAnswer call a], Continue) /\
    answer m (o_res (snd (step (w_core w) o))) = [a] /\ tid_of_smsg a = Some (next_tid c) /\ cb_find (next_tid c) (get_slot sl c2) = None.
Proof.
  intros Hs Hf Hp Hsl m Hop Hv1 Hnc Hq.
  destruct (plain_msg c call cmd Hp) as (K1 & K2 & K3 & K4). fold m in K1, K2, K3, K4.
  pose proof (handle_read w sn s m o Hs Hop Hv1 K1 K2 K3) as Hh.
  pose proof (answer_serves cmd sl c call sn (w_core w) o) as Hsv.
  destruct (step (w_core w) o) as [core' out]. cbn [fst snd] in *.
  destruct (answer_unique m (o_res out) Hnc (K4 _)) as (a & Ha & Hta).
  rewrite (tid_of_cmsg_tid m _ (on_cmd_tid c call cmd sl Hsl)) in Hta.
  destruct (answer_exact _ sl (next_tid c) call a (fresh_registers c call cmd sl Hf Hp Hsl) Hta (Hsv a Hp Hsl Hop Ha)) as (Hd & Hgone).
  exists a, (fst (on_msg (fst (fst (on_cmd c call cmd))) a)). rewrite <- Hd. split; [|auto].
  apply (round_trip_one w c sn call cmd _ _ _ a Hh).
  unfold set_core in Hq. rewrite filter_app, Hq, Ha. apply (filter_mine sn [a]).
Qed.

(* C20: a call that is answered in its own step, on a session whose client has no channel open: exactly the terminal
   answer comes back, and it reaches the caller *)
Theorem call_end_to_end w c sn s call cmd sl o :
  served w sn s -> Fresh c -> no_channels w sn -> plain_call cmd = true -> slot_of cmd = Some sl ->
  let m := snd (fst (on_cmd c call cmd)) in
  op_of (cid_of sn) m = Some o -> (N.eqb (ss_proto s) 0 && v1_only m)%bool = false ->
  o_res (snd (step (w_core w) o)) <> RCrash ->
  let '(w1, c2, ds, v) := round_trip w c sn call cmd in
  w_core w1 = fst (step (w_core w) o) /\ v = Continue /\
  exists a, answer m (o_res (snd (step (w_core w) o))) = [a] /\ ds = [DAnswer call a] /\
            cb_find (next_tid c) (get_slot sl c2) = None.
Proof.
  intros Hs Hf Hq Hp Hsl m Hop Hv1 Hnc.
  destruct (call_answered w c sn s call cmd sl o Hs Hf Hp Hsl Hop Hv1 Hnc (route_not_mine (set_core w _) _ sn Hq)) as (a & c2 & -> & Ha & _ & Hg).
  split; [reflexivity|]. split; [reflexivity|]. exists a. auto.
Qed.

(* get: the caller receives the value the store holds, None where it holds none, the key's error where the key is ill-formed *)
Theorem get_end_to_end w c sn s call k :
  served w sn s -> Fresh c ->
  let '(w1, c2, ds, v) := round_trip w c sn call (CGet k) in
  w_core w1 = w_core w /\ v = Continue /\
  exists sm, ds = [DAnswer call sm] /\ tid_of_smsg sm = Some (next_tid c) /\
             result_of (CGet k) sm = get_spec (abs (w_core w)) k /\
             cb_find (next_tid c) (state c2) = None.
Proof.
  intros Hs Hf.
  assert (Hnc : do_get (w_core w) k <> RCrash) by (unfold do_get; destruct (parse_segments k); [destruct (lookup _ _)|]; discriminate).
  (* a read has no events to route: the filter hypothesis holds by computation, whatever channels are open *)
  destruct (call_answered w c sn s call (CGet k) SlState (OGet k) Hs Hf eq_refl eq_refl eq_refl (Bool.andb_false_r _) Hnc eq_refl)
    as (a & c2 & -> & Ha & Ht & Hg).
  cbn [on_cmd fst snd step o_res out_res] in Ha. split; [reflexivity|]. split; [reflexivity|]. exists a. repeat split; try assumption.
  unfold do_get, get_spec, abs in *. destruct (parse_segments k) as [p|code] eqn:Hp.
  - destruct (lookup (data (w_core w)) p); cbn in Ha; injection Ha as <-; reflexivity.
  - cbn in Ha. injection Ha as <-. cbn [result_of]. destruct (parse_err_code k code Hp) as [-> | ->]; reflexivity.
Qed.

Definition cget_spec (m : mstate) (k : str) : cresult :=
  match parse_segments k with
  | Err code => CRErr code
  | Ok p => match m p with Some (Cas v n) => CRCVal v n | Some (Plain v) => CRCVal v 0 | None => CRNone end
  end.

Theorem cget_end_to_end w c sn s call k :
  served w sn s -> ss_proto s = 1 -> Fresh c -> no_channels w sn ->
  let '(w1, c2, ds, v) := round_trip w c sn call (CCGet k) in
  w_core w1 = w_core w /\ v = Continue /\ result_in ds (CCGet k) call = cget_spec (abs (w_core w)) k.
Proof.
  intros Hs Hp1 Hf Hq.
  assert (Hnc : do_cget (w_core w) k <> RCrash) by (unfold do_cget; destruct (parse_segments k); [destruct (lookup _ _) as [[?|? ?]|]|]; discriminate).
  destruct (call_answered w c sn s call (CCGet k) SlCState (OCGet k) Hs Hf eq_refl eq_refl eq_refl ltac:(now rewrite Hp1) Hnc (route_not_mine (set_core w _) _ sn Hq))
    as (a & c2 & -> & Ha & _).
  cbn [on_cmd fst snd step o_res out_res] in Ha. split; [reflexivity|]. split; [reflexivity|]. rewrite result_in_own.
  unfold do_cget, cget_spec, abs in *. destruct (parse_segments k) as [p|code] eqn:Hp.
  - destruct (lookup (data (w_core w)) p) as [[x|x n]|]; cbn in Ha; injection Ha as <-; reflexivity.
  - cbn in Ha. injection Ha as <-. cbn [result_of]. destruct (parse_err_code k code Hp) as [-> | ->]; reflexivity.
Qed.

(* pget: the pairs the caller gets are exactly the stored entries the pattern matches *)
Theorem pget_end_to_end w c sn s call pat :
  served w sn s -> Fresh c -> no_channels w sn -> Inv (w_core w) ->
  let '(w1, c2, ds, v) := round_trip w c sn call (CPGet pat) in
  w_core w1 = w_core w /\ v = Continue /\
  match result_in ds (CPGet pat) call with
  | CRKvs l => forall k x, In (k, x) l <-> exists q e, k = join slash q /\ x = entry_val e /\ abs (w_core w) q = Some e /\ store_match (kseg_parse pat) q = true
  | CRErr code => code = E_IllegalMultiWildcard /\ wf_pat (kseg_parse pat) = false
  | _ => False
  end.
Proof.
  intros Hs Hf Hq HI. pose proof (do_pget_spec (w_core w) pat HI) as Hspec.
  assert (Hnc : o_res (snd (step (w_core w) (OPGet pat))) <> RCrash) by (cbn; destruct (do_pget (w_core w) pat); discriminate).
  destruct (call_answered w c sn s call (CPGet pat) SlPState (OPGet pat) Hs Hf eq_refl eq_refl eq_refl (Bool.andb_false_r _) Hnc (route_not_mine (set_core w _) _ sn Hq))
    as (a & c2 & -> & Ha & _).
  cbn [on_cmd fst snd step o_res out_res] in Ha. split; [reflexivity|]. split; [reflexivity|]. rewrite result_in_own.
  destruct (do_pget (w_core w) pat) as [l|code]; injection Ha as <-; exact Hspec.
Qed.

(* set: Ok means the store holds the value afterwards; an error means the store is as it was *)
Theorem set_end_to_end w c sn s call k x :
  served w sn s -> Fresh c -> no_channels w sn -> Inv (w_core w) ->
  let '(w1, c2, ds, v) := round_trip w c sn call (CSet k x) in
  v = Continue /\
  match result_in ds (CSet k x) call with
  | CROk => exists p, parse_segments k = Ok p /\ meq (abs (w_core w1)) (m_set (abs (w_core w)) p (Plain x))
  | CRErr _ => w_core w1 = w_core w
  | _ => False
  end.
Proof.
  intros Hs Hf Hq HI.
  pose proof (do_insert_effect (w_core w) (cid_of sn) k (Plain x) false HI) as He. cbv zeta in He.
  (* the version overflow of F17 cannot happen for a plain set *)
  pose proof (insert_no_crash (w_core w) (cid_of sn) k (Plain x) false I) as Hnc.
  destruct (call_answered w c sn s call (CSet k x) SlAck (OSet (cid_of sn) k x false) Hs Hf eq_refl eq_refl eq_refl (Bool.andb_false_r _) Hnc (route_not_mine (set_core w _) _ sn Hq))
    as (a & c2 & -> & Ha & _).
  cbn [on_cmd fst snd step] in Ha. split; [reflexivity|]. rewrite result_in_own. cbn [set_core w_core step].
  destruct (o_res (snd (do_insert (w_core w) (cid_of sn) k (Plain x) false))) eqn:Er; try contradiction;
    injection Ha as <-; cbn [result_of].
  - destruct He as (p & ex & ch & e' & Hp & Hd & _ & Hm). exists p. split; [exact Hp|]. now rewrite (decide_plain _ _ _ _ _ _ Hd) in Hm.
  - exact He.
Qed.

(* delete: the caller gets the value that was removed, or None *)
Theorem delete_end_to_end w c sn s call k :
  served w sn s -> Fresh c -> no_channels w sn -> Inv (w_core w) ->
  let '(w1, c2, ds, v) := round_trip w c sn call (CDelete k) in
  v = Continue /\
  match result_in ds (CDelete k) call with
  | CRVal x => exists p e, parse_segments k = Ok p /\ abs (w_core w) p = Some e /\ x = entry_val e /\ meq (abs (w_core w1)) (m_del (abs (w_core w)) p)
  | CRNone | CRErr _ => meq (abs (w_core w1)) (abs (w_core w))
  | _ => False
  end.
Proof.
  intros Hs Hf Hq HI.
  pose proof (do_delete_effect (w_core w) (cid_of sn) k HI) as He. cbv zeta in He.
  assert (Hnc : o_res (snd (do_delete (w_core w) (cid_of sn) k)) <> RCrash) by (intros E; rewrite E in He; exact He).
  destruct (call_answered w c sn s call (CDelete k) SlState (ODelete (cid_of sn) k) Hs Hf eq_refl eq_refl eq_refl (Bool.andb_false_r _) Hnc (route_not_mine (set_core w _) _ sn Hq))
    as (a & c2 & -> & Ha & _).
  cbn [on_cmd fst snd step] in Ha. split; [reflexivity|]. rewrite result_in_own. cbn [set_core w_core step].
  destruct (o_res (snd (do_delete (w_core w) (cid_of sn) k))) eqn:Er; try contradiction; injection Ha as <-; cbn [result_of].
  - destruct He as (p & e & Hp & Hab & -> & _ & Hm). exists p, e. auto.
  - destruct (N.eqb code E_NoSuchValue); exact (proj2 He).
Qed.

(* the hypotheses hold and the conclusions say something: a fresh client on a fresh session sets a key and reads it back *)
Example round_trip_demo :
  let w0 := fst (open_session (world_init false) 0) in
  let '(w1, c1, d1, _) := round_trip w0 cinit 0 1 (CSet [97] (JNum [49])) in
  let '(w2, c2, d2, _) := round_trip w1 c1 0 2 (CGet [97]) in
  let '(w3, c3, d3, _) := round_trip w2 c2 0 3 (CCGet [98]) in
  result_in d1 (CSet [97] (JNum [49])) 1 = CROk /\ result_in d2 (CGet [97]) 2 = CRVal (JNum [49]) /\ result_in d3 (CCGet [98]) 3 = CRNone /\
  next_tid c3 = 4.
Proof. vm_compute. repeat split; reflexivity. Qed.

Definition state_msg (tid : N) (e : event) : option smsg :=
  match e with EValue v => Some (SState tid (SValue v)) | EDeleted v => Some (SState tid (SDeleted v)) | _ => None end.

Definition to_sub (sn tid : N) (x : N * smsg) : bool :=
  N.eqb (fst x) sn && match snd x with SState t _ => N.eqb t tid | _ => false end.

Definition chan_events (w : world) (o : output) : list (N * smsg) :=
  flat_map (fun ie =>
              match lookup_n (fst ie) (w_chan w) with
              | Some (sn, tid, k) =>
                  if sess_open w sn then
                    match snd ie, k with
                    | EValue v, _ => [(sn, SState tid (SValue v))]
                    | EDeleted v, _ => [(sn, SState tid (SDeleted v))]
                    | EPValue kvs, KPState p => [(sn, SPState tid p (PKvs kvs))]
                    | EPDeleted kvs, KPState p => [(sn, SPState tid p (PDel kvs))]
                    | _, _ => []
                    end
                  else []
              | None => []
              end) (o_events o).

Lemma filter_flat_map {A B} (f : B -> bool) (g : A -> list B) l : filter f (flat_map g l) = flat_map (fun a => filter f (g a)) l.
Proof. induction l as [|a l IH]; [reflexivity|]. cbn [flat_map]. now rewrite filter_app, IH. Qed.

(* the State messages that reach session sn under the subscription's id are the events of the subscription's channel,
   one message per event, in order -- provided no other channel is filed under the same session and id (F24) *)
Theorem channel_to_wire w o sn tid inst :
  lookup_n inst (w_chan w) = Some (sn, tid, KState) -> sess_open w sn = true ->
  (forall inst' k', lookup_n inst' (w_chan w) = Some (sn, tid, k') -> inst' = inst) ->
  filter (to_sub sn tid) (route_events w o) =
  flat_map (fun e => match state_msg tid e with Some m => [(sn, m)] | None => [] end) (chan inst (o_events o)).
Proof.
  intros Hl Hop Huniq. unfold route_events. rewrite !filter_app.
  (* the three other kinds of traffic carry no State message *)
  rewrite (filter_none (to_sub sn tid) (flat_map _ (o_ls o))), (filter_none (to_sub sn tid) (flat_map _ (o_granted o))), (filter_none (to_sub sn tid) (flat_map _ (o_cancelled o))).
  2,3: intros x Hx; apply in_flat_map in Hx as (r & _ & Hx); destruct (lookup_n r (w_reqs w)) as [[sn' t']|]; [|destruct Hx].
  4: intros x Hx; apply in_flat_map in Hx as (il & _ & Hx); destruct (lookup_n (fst il) (w_chan w)) as [[[sn' t'] k']|]; [|destruct Hx].
  2-4: destruct (sess_open w sn'); [|destruct Hx]; destruct Hx as [<-|[]]; unfold to_sub; cbn; now rewrite Bool.andb_false_r.
  rewrite !app_nil_r. unfold chan. rewrite filter_flat_map.
  induction (o_events o) as [|[i e] evs IH]; [reflexivity|]. cbn [flat_map filter fst snd]. rewrite IH. clear IH.
  destruct (N.eqb_spec i inst) as [->|Hne]; cbn [map snd flat_map].
  - f_equal. rewrite Hl, Hop.
    destruct e; cbn [state_msg filter]; unfold to_sub; cbn [fst snd]; rewrite ?N.eqb_refl; reflexivity.
  - replace (filter (to_sub sn tid) _) with (@nil (N * smsg)); [reflexivity|]. symmetry. apply filter_none. intros x Hx.
    destruct (lookup_n i (w_chan w)) as [[[sn' t'] k']|] eqn:El; [|destruct Hx]. destruct (sess_open w sn'); [|destruct Hx].
    assert (Hd : (N.eqb sn' sn && N.eqb t' tid)%bool = false).
    { destruct (N.eqb_spec sn' sn) as [->|]; [|reflexivity]. destruct (N.eqb_spec t' tid) as [->|]; [|reflexivity].
      elim Hne. exact (Huniq i k' El). }
    unfold to_sub. destruct e, k'; try destruct Hx as [<-|[]]; try destruct Hx; cbn [fst snd]; try exact Hd; now rewrite Bool.andb_false_r.
Qed.

(* [cb_find tid (state c) = None]: no one-shot call is pending under the subscription's id *)
Theorem wire_to_stream c tid call x :
  cb_find tid (sub c) = Some call -> cb_find tid (state c) = None ->
  on_msg c (SState tid x) = (c, [DEvent call (SState tid x)]).
Proof.
  intros Hs Hst. cbn [on_msg]. rewrite Hs, Hst, (cb_remove_absent tid (state c) Hst). cbn [opt_list app]. now destruct c.
Qed.
