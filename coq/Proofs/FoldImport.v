(* C03, last clause, with imports: folding the events of a pattern subscription over its snapshot gives what pget of
   the pattern returns after any history of requests of every kind that changes the store -- imports included.  Only
   publish and publish streams stay out: they deliver a value without storing it (that is what they are for).
   An import sends one event per entry of the imported tree, changed or not (Worterbuch::import); the entries of a tree
   have distinct paths, so the unchanged ones still hold their value when their turn comes. *)
From WB Require Import Base.Str Base.JsonFacts Model.Consts Model.Store Model.Subs Model.Entry Model.Core Proofs.StoreFacts Proofs.MergeFacts
  Proofs.CoreFacts Proofs.StreamProof Proofs.LenFacts Proofs.C01Proof Proofs.StreamAll Proofs.FoldProof Proofs.NoCrash
  Proofs.Unconditional.

Definition store_kind (o : op) : Prop :=
  match o with OPublish _ _ | OSPub _ _ _ => False | _ => True end.

Lemma entry_eqb_same a b : entry_eqb a b = true -> a = b.
Proof.
  destruct a as [x|x n], b as [y|y m]; cbn; try discriminate.
  - intros H. apply json_eqb_eq in H. now subst.
  - intros H. apply andb_true_iff in H as (H1 & H2). apply json_eqb_eq in H1. apply N.eqb_eq in H2. now subst.
Qed.

Lemma import_delta s j other0 :
  Inv s -> dec_persisted j = Some other0 -> good_import other0 -> delta s (OImport j).
Proof.
  intros HI Ed Hgood. pose proof HI as (Hw & _). destruct (import_cases s j other0 Ed Hgood) as (Ec & E).
  unfold delta. cbn [step]. rewrite Ec, E. cbn [fst]. clear Ec E. set (other := strip_sys s_SYS other0).
  destruct (good_import_strip other0 Hgood) as (Hwo & Hgo & Hro). fold other in Hwo, Hgo, Hro.
  set (cs := map imp_change (insertions (data s) other)).
  assert (Hnd : NoDup (map ch_path cs)).
  { replace (map ch_path cs) with (map fst (entries other [])); [now apply entries_nodup|].
    unfold cs, insertions. rewrite !map_map. apply map_ext. now intros [q e]. }
  assert (Hin_cs : forall c, In c cs <->
            exists q e, lookup other q = Some e /\
              c = imp_change (q, e, match lookup (data s) q with Some e0 => negb (entry_eqb e0 e) | None => true end)).
  { intros c. unfold cs, insertions. rewrite map_map, in_map_iff. split.
    - intros ([q e] & <- & Hin). exists q, e. split; [now apply entries_lookup|reflexivity].
    - intros (q & e & Hl & ->). exists (q, e). split; [reflexivity|now apply entries_lookup]. }
  split.
  - intros q. unfold val_of at 1, abs. cbn [data set_data]. rewrite (lookup_merge other (data s) q Hw Hwo).
    destruct (vapply_cases cs (val_of s) q) as [(c & Hc & <- & ->)|(Hno & ->)].
    + apply Hin_cs in Hc as (q & e & Hl & ->). cbn [imp_change ch_path ch_deleted ch_val fst snd]. now rewrite Hl.
    + destruct (lookup other q) as [e|] eqn:El; [|reflexivity].
      eelim Hno; [apply Hin_cs; now exists q, e|reflexivity].
  - apply changes_ok_nodup; [exact Hnd|]. intros c Hc. apply Hin_cs in Hc as (q & e & Hl & ->).
    unfold change_ok, imp_change. cbn [ch_key ch_path ch_changed ch_deleted ch_val fst snd].
    split; [reflexivity|]. split; [exact (key_good other q e Hgo Hro Hl)|].
    intros Hch. split; [reflexivity|].
    destruct (lookup (data s) q) as [e0|] eqn:E0; [|discriminate].
    apply Bool.negb_false_iff, entry_eqb_same in Hch. subst e0. unfold val_of, abs. now rewrite E0.
Qed.

Lemma store_kind_cases o : store_kind o -> quiet_kind o \/ exists j, o = OImport j.
Proof. destruct o; intros H; try (left; exact I); try contradiction. right. eauto. Qed.

(* C03: every history of requests of every kind except publish and publish streams *)
Theorem fold_is_pget_all os : forall s sb F,
  s_pstate sb = true -> K s -> Registered s sb -> Forall store_kind os -> Forall import_ok os -> Forall (foreign sb) os ->
  no_crash_run s os -> AgreeM sb (val_of s) F ->
  AgreeM sb (val_of (final s os)) (fold_evs F (stream (s_inst sb) s os)).
Proof.
  intros s sb F Hps. apply (fold_history store_kind); [| |exact Hps].
  - intros c o. destruct o; try contradiction; exact (fun _ => I).
  - intros s0 o HI He Hk Hi. destruct (store_kind_cases o Hk) as [Hq|(j & ->)]; [now apply changes_delta|].
    destruct (dec_persisted j) as [other0|] eqn:Ed; [exact (import_delta s0 j other0 HI Ed (Hi other0 Ed))|].
    unfold delta. cbn [step changes]. unfold do_import. rewrite Ed. now split.
Qed.

(* ... and without crash hypotheses: a subscription registered after ANY safe history [pre] (safe: no cset at version
   u64::MAX (F17), no import of a tree with irregular names, no nil client id), followed through ANY safe history [os]
   without publishes *)
Theorem fold_is_pget_all_safe pre os sb F :
  Forall safe_op (pre ++ os) -> s_pstate sb = true -> Registered (final init pre) sb ->
  Forall store_kind os -> Forall (foreign sb) os -> AgreeM sb (val_of (final init pre)) F ->
  AgreeM sb (val_of (final (final init pre) os)) (fold_evs F (stream (s_inst sb) (final init pre) os)).
Proof.
  intros H Hps HR Hq Hf HA. destruct (safe_prefix pre os H) as (HK & Hnc & Hi). now apply fold_is_pget_all.
Qed.
