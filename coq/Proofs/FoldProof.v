(* C03, last clause: folding the events of a pattern subscription over its snapshot gives what pget of the pattern
   returns.  Stated per key: for every key on which the two matchers agree (all keys, except the key K itself for a
   pattern K/# -- known finding F2), after any history of requests of every kind except publish, publish streams and
   import, the folded value is the stored one if the pattern matches and nothing otherwise.  The history part is
   proved for any kind of request whose changes are what it does to the stored values ([delta]); FoldImport.v adds
   the imports. *)
From WB Require Import Base.Str Base.StrFacts Base.Json Base.JsonFacts Model.Key Model.Store Model.Match Model.Subs
  Model.Entry Model.Core Proofs.StoreFacts Proofs.GoodNames Proofs.CoreFacts Proofs.C03Proof Proofs.StreamProof
  Proofs.C01Proof Proofs.LockHistory Proofs.SessionEnd Proofs.StreamAll.


(* what a client keeps of a pattern subscription: per key the last value heard, updated event by event *)
Definition fstate := str -> option json.
Definition fupd (f : fstate) (k : str) (x : option json) : fstate := fun k' => if str_eqb k k' then x else f k'.
Definition fold_ev (f : fstate) (e : event) : fstate :=
  match e with
  | EPValue kvs => fold_left (fun f kv => fupd f (fst kv) (Some (snd kv))) kvs f
  | EPDeleted kvs => fold_left (fun f kv => fupd f (fst kv) None) kvs f
  | _ => f
  end.
Definition fold_evs (f : fstate) (evs : list event) : fstate := fold_left fold_ev evs f.

Definition vmap := list str -> option json.
Definition val_of (s : core) : vmap := fun q => option_map entry_val (abs s q).
Definition vstep (m : vmap) (c : change) : vmap :=
  fun q => if path_eqb (ch_path c) q then (if ch_deleted c then None else Some (ch_val c)) else m q.
Definition vapply (cs : list change) (m : vmap) : vmap := fold_left vstep cs m.

Definition good_path (q : list str) : Prop := q <> [] /\ Forall good_seg q.

Lemma key_of_inj q q' : good_path q -> good_path q' -> key_of q = key_of q' -> q = q'.
Proof.
  intros (Hn & Hg) (Hn' & Hg') E. pose proof (parse_join_good q Hn Hg) as H. pose proof (parse_join_good q' Hn' Hg') as H'.
  fold (key_of q) in H. fold (key_of q') in H'. rewrite E in H. congruence.
Qed.

Lemma parsed_key k p : parse_segments k = Ok p -> k = key_of p /\ good_path p.
Proof.
  intros Ep. split; [now apply key_of_path|]. destruct (parse_segments_good _ _ Ep) as (_ & Hgp & Hne). now split.
Qed.

Lemma collect_abs s P q e :
  Inv s -> (In (q, e) (collect (data s) [] P) <-> abs s q = Some e /\ store_match P q = true).
Proof.
  intros (Hw & _). rewrite (collect_spec _ _ _ _ _ Hw). cbn [app].
  split; [intros (k & -> & H1 & H2); auto|intros (H1 & H2); exists q; auto].
Qed.

Lemma fold_evs_app F a b : fold_evs F (a ++ b) = fold_evs (fold_evs F a) b.
Proof. unfold fold_evs. apply fold_left_app. Qed.

(* a change the fold can follow: it is announced under the key of its path, and if it is flagged unchanged (so that
   a subscription for unique values hears nothing of it) the value is there already *)
Definition change_ok (m : vmap) (c : change) : Prop :=
  ch_key c = key_of (ch_path c) /\ good_path (ch_path c) /\
  (ch_changed c = false -> ch_deleted c = false /\ m (ch_path c) = Some (ch_val c)).

Fixpoint changes_ok (m : vmap) (cs : list change) : Prop :=
  match cs with [] => True | c :: cs' => change_ok m c /\ changes_ok (vstep m c) cs' end.

Lemma changes_ok_changed cs :
  (forall c, In c cs -> ch_key c = key_of (ch_path c) /\ good_path (ch_path c) /\ ch_changed c = true) ->
  forall m, changes_ok m cs.
Proof.
  induction cs as [|c cs IH]; intros H m; [exact I|]. split; [|apply IH; intros c' Hc'; apply H; now right].
  destruct (H c (or_introl eq_refl)) as (Hk & Hg & Hc). split; [exact Hk|]. split; [exact Hg|]. congruence.
Qed.

Lemma changes_ok_nodup cs : forall m,
  NoDup (map ch_path cs) -> (forall c, In c cs -> change_ok m c) -> changes_ok m cs.
Proof.
  induction cs as [|c cs IH]; intros m Hnd H; [exact I|]. cbn [map] in Hnd. apply NoDup_cons_iff in Hnd as (Hnc & Hnd).
  split; [apply H; now left|]. apply IH; [exact Hnd|]. intros c' Hin.
  destruct (H c' (or_intror Hin)) as (Hk' & Hg' & Hun'). split; [exact Hk'|]. split; [exact Hg'|].
  intros Ec'. destruct (Hun' Ec') as (Hd' & Hv'). split; [exact Hd'|].
  unfold vstep. destruct (path_eqb_spec (ch_path c) (ch_path c')) as [E|]; [|exact Hv'].
  exfalso. apply Hnc. rewrite E. now apply in_map.
Qed.

Section OneSubscription.
  Variable sb : subscriber.
  Hypothesis Hps : s_pstate sb = true.
  Let P := s_pat sb.

  Definition AgreeM (m : vmap) (F : fstate) : Prop :=
    forall q, good_path q -> sub_match P q = store_match P q ->
      F (key_of q) = if store_match P q then m q else None.

  Lemma fold_one m F c :
    AgreeM m F -> change_ok m c ->
    AgreeM (vstep m c) (fold_evs F (if wants sb (ch_path c) (ch_changed c)
                                    then [event_for sb (ch_key c) (ch_val c) (ch_deleted c)] else [])).
  Proof.
    intros HA (Hk & Hg & Hun) q Hq Hm. unfold vstep, wants. fold P.
    (* the event, if there is one, writes or clears the key of the change and no other *)
    assert (Hev : forall k, fold_evs F [event_for sb (ch_key c) (ch_val c) (ch_deleted c)] k =
                            if str_eqb (ch_key c) k then (if ch_deleted c then None else Some (ch_val c)) else F k).
    { intros k. unfold fold_evs, event_for. rewrite Hps. cbn [fold_left].
      destruct (ch_deleted c); cbn [fold_ev fold_left fst snd]; reflexivity. }
    destruct (path_eqb_spec (ch_path c) q) as [E|Hne].
    - subst q. rewrite Hm.
      destruct (store_match P (ch_path c)) eqn:Esm; cbn [andb].
      + destruct (ch_changed c || negb (s_unique sb))%bool eqn:Ew.
        * now rewrite Hev, Hk, str_eqb_refl.
        * cbn [fold_evs fold_left]. apply orb_false_iff in Ew as (Ec & _). destruct (Hun Ec) as (-> & Hv).
          rewrite (HA _ Hq (eq_trans Hm (eq_sym Esm))), Esm. exact Hv.
      + cbn [fold_evs fold_left]. now rewrite (HA _ Hq (eq_trans Hm (eq_sym Esm))), Esm.
    - rewrite <- (HA _ Hq Hm). destruct (_ && _)%bool; [|reflexivity]. rewrite Hev.
      destruct (str_eqb_spec (ch_key c) (key_of q)) as [E|]; [|reflexivity].
      elim Hne. apply key_of_inj; congruence.
  Qed.

  Lemma fold_changes cs : forall m F,
    AgreeM m F -> changes_ok m cs -> AgreeM (vapply cs m) (fold_evs F (wanted sb cs)).
  Proof.
    induction cs as [|c cs IH]; intros m F HA Hok; [exact HA|]. destruct Hok as (Hc & Hcs).
    cbn [wanted flat_map]. rewrite fold_evs_app.
    apply (IH (vstep m c)); [now apply fold_one|exact Hcs].
  Qed.
End OneSubscription.

Lemma AgreeM_ext sb m m' F : (forall q, m q = m' q) -> AgreeM sb m F -> AgreeM sb m' F.
Proof. intros E H q Hq Hm. rewrite <- E. now apply H. Qed.

Definition delta (s : core) (o : op) : Prop :=
  (forall q, val_of (fst (step s o)) q = vapply (changes s o) (val_of s) q) /\ changes_ok (val_of s) (changes s o).

Definition quiet_kind (o : op) : Prop :=
  match o with OPublish _ _ | OSPub _ _ _ | OImport _ => False | _ => True end.

Lemma vapply_cases cs : forall m q,
  (exists c, In c cs /\ ch_path c = q /\ vapply cs m q = if ch_deleted c then None else Some (ch_val c)) \/
  ((forall c, In c cs -> ch_path c <> q) /\ vapply cs m q = m q).
Proof.
  induction cs as [|c cs IH]; intros m q; [right; split; [intros c []|reflexivity]|].
  unfold vapply. cbn [fold_left]. fold (vapply cs (vstep m c)).
  destruct (IH (vstep m c) q) as [(c0 & Hc0 & Hp & E)|(Hno & E)].
  - left. exists c0. split; [now right|now split].
  - rewrite E. unfold vstep. destruct (path_eqb_spec (ch_path c) q) as [Hp|Hp].
    + left. exists c. split; [now left|now split].
    + right. split; [|reflexivity]. intros c' [<-|Hc']; [exact Hp|now apply Hno].
Qed.

Lemma decide_unchanged cur e f ex e' :
  decide cur e f = DOk ex false e' -> option_map entry_val cur = Some (entry_val e).
Proof.
  intros H. apply decide_ok in H as (_ & H & _). destruct cur as [c|]; [|discriminate].
  symmetry in H. apply Bool.negb_false_iff, json_eqb_eq in H. cbn. now rewrite H.
Qed.

Lemma insert_delta s c k e f :
  (forall q, val_of (fst (do_insert s c k e f)) q = vapply (ins_changes s c k e f) (val_of s) q) /\
  changes_ok (val_of s) (ins_changes s c k e f).
Proof.
  destruct (insert_cases s c k e f) as [(-> & r & ->)|(p & ex & ch & e' & Ep & Ed & -> & ->)]; [now split|].
  destruct (parsed_key k p Ep) as (Hk & Hg). split.
  - intros q. unfold val_of at 1, abs. cbn [fst data set_data vapply fold_left]. rewrite lookup_set_at.
    unfold vstep. cbn [ch_path ch_deleted ch_val]. destruct (path_eqb p q); [|reflexivity].
    cbn [option_map]. now rewrite (decide_val _ _ _ _ _ _ Ed).
  - split; [|exact I]. split; [exact Hk|]. split; [exact Hg|]. cbn [ch_changed ch_deleted ch_path ch_val].
    intros ->. split; [reflexivity|]. exact (decide_unchanged _ _ _ _ _ Ed).
Qed.

Theorem changes_delta s o :
  Inv s -> elem o -> quiet_kind o -> delta s o.
Proof.
  intros HI He Hq. pose proof HI as (Hw & _).
  assert (Hsame : data (fst (step s o)) = data s -> changes s o = [] -> delta s o).
  { intros Ed Ec. unfold delta. rewrite Ec. split; [|exact I]. intros q. unfold val_of, abs. now rewrite Ed. }
  destruct o; try contradiction; try (apply Hsame; reflexivity);
    try (apply Hsame; [apply other_data_same; exact I|reflexivity]); unfold delta; cbn [step] in *.
  - exact (insert_delta s c k (Plain v) force).
  - exact (insert_delta s c k (Cas v ver) force).
  - destruct (delete_cases s c k HI) as [(-> & code & ->)|(p & e & Ep & El & -> & ->)]; [now split|]. split.
    + intros q. unfold val_of at 1, abs. cbn [fst data set_data vapply fold_left]. rewrite lookup_del_at by exact Hw.
      unfold vstep. cbn [ch_path ch_deleted]. now destruct (path_eqb p q).
    + apply changes_ok_changed. intros c0 [<-|[]]. destruct (parsed_key k p Ep) as (Hk & Hg).
      cbn [ch_key ch_path ch_changed]. now split.
  - destruct (pdelete_cases s c p HI) as [(-> & code & ->)|(-> & ->)]; [now split|].
    pose proof (fun q e => collect_abs s (kseg_parse p) q e HI) as Hin. set (ms := collect (data s) [] (kseg_parse p)) in *.
    split.
    + intros q. unfold val_of at 1, abs. cbn [fst data set_data]. rewrite (lookup_delm _ [] _ q Hw).
      destruct (vapply_cases (map del_change ms) (val_of s) q) as [(c0 & Hc0 & <- & ->)|(Hno & ->)].
      * apply in_map_iff in Hc0 as ([q e] & <- & Hqe). cbn [del_change ch_path ch_deleted fst]. apply Hin in Hqe as (_ & ->). reflexivity.
      * destruct (store_match (kseg_parse p) q) eqn:Esm; [|reflexivity]. unfold val_of, abs.
        destruct (lookup (data s) q) as [e|] eqn:El; [|reflexivity].
        elim (Hno (del_change (q, e))); [apply in_map; now apply Hin|reflexivity].
    + apply changes_ok_changed. intros c0 Hc0. apply in_map_iff in Hc0 as ([q e] & <- & Hqe).
      apply Hin in Hqe as (Hl & _). split; [reflexivity|]. split; [exact (stored_key_good s q e HI Hl)|reflexivity].
Qed.

Section Histories.
  Variable kind : op -> Prop.
  Hypothesis kind_session : forall c o, end_kind c o -> kind o.
  Hypothesis kind_delta : forall s o,
    Inv s -> elem o -> kind o -> import_ok o -> delta s o.
  Variable sb : subscriber.
  Hypothesis Hps : s_pstate sb = true.

  Lemma fold_run ops : forall s F,
    K s -> Forall elem ops -> Forall kind ops -> Forall import_ok ops -> nocrash (trace s ops) ->
    AgreeM sb (val_of s) F -> AgreeM sb (val_of (final s ops)) (fold_evs F (wanted_run sb s ops)).
  Proof.
    induction ops as [|o ops IH]; intros s F HK He Hk Hi Hnc HA; [exact HA|].
    apply Forall_cons_iff in He as (He & Hes). apply Forall_cons_iff in Hk as (Hk & Hks).
    apply Forall_cons_iff in Hi as (Hi & His). apply nocrash_cons in Hnc as (Hc & Hnc).
    cbn [wanted_run]. rewrite fold_evs_app. change (final s (o :: ops)) with (final (fst (step s o)) ops).
    apply IH; try assumption; [now apply elem_K|].
    destruct (kind_delta s o (k_inv _ HK) He Hk Hi) as (Hd & Hok).
    apply (AgreeM_ext sb (vapply (changes s o) (val_of s))); [intros q; symmetry; apply Hd|].
    now apply fold_changes.
  Qed.

  Lemma fold_wanted os : forall s F,
    K s -> Forall kind os -> Forall import_ok os -> no_crash_run s os ->
    AgreeM sb (val_of s) F -> AgreeM sb (val_of (final s os)) (fold_evs F (wanted_stream sb s os)).
  Proof.
    induction os as [|o os IH]; intros s F HK Hk Hi Hnc HA; [exact HA|].
    apply Forall_cons_iff in Hk as (Hk & Hks). apply Forall_cons_iff in Hi as (Hi & His). destruct Hnc as (Hc & Hrest).
    cbn [wanted_stream]. rewrite fold_evs_app. change (final s (o :: os)) with (final (fst (step s o)) os).
    apply IH; try assumption; [exact (proj1 (any_step s o HK Hi Hc))|].
    destruct (step_as_run s o HK Hi Hc) as (HK0 & Ed & _ & _ & Hel & Himp & Nc & -> & _).
    apply fold_run; try assumption.
    - (* the three sets of a session start are sets, hence of [end_kind] for any client, say 0, hence of [kind] *)
      apply expand_Forall; [trivial|intros; now apply (kind_session 0)|intros c o' _; apply kind_session].
    - apply (AgreeM_ext sb (val_of s)); [|exact HA]. intros q. unfold val_of, abs. now rewrite Ed.
  Qed.

  Theorem fold_history os s F :
    K s -> Registered s sb -> Forall kind os -> Forall import_ok os -> Forall (foreign sb) os ->
    no_crash_run s os -> AgreeM sb (val_of s) F ->
    AgreeM sb (val_of (final s os)) (fold_evs F (stream (s_inst sb) s os)).
  Proof. intros HK HR Hk Hi Hf Hnc HA. rewrite stream_all by assumption. now apply fold_wanted. Qed.
End Histories.

Lemma quiet_import_ok o : quiet_kind o -> import_ok o.
Proof. destruct o; try exact (fun _ => I). contradiction. Qed.

(* C03: every history of requests of every kind except publish, publish streams and import *)
Theorem fold_is_pget os : forall s sb F,
  s_pstate sb = true -> K s -> Registered s sb -> Forall quiet_kind os -> Forall (foreign sb) os -> no_crash_run s os ->
  AgreeM sb (val_of s) F ->
  AgreeM sb (val_of (final s os)) (fold_evs F (stream (s_inst sb) s os)).
Proof.
  intros s sb F Hps HK HR Hq. apply (fold_history quiet_kind); try assumption.
  - intros c o. destruct o; try contradiction; exact (fun _ => I).
  - intros s0 o HI He Hk _. now apply changes_delta.
  - exact (Forall_impl _ quiet_import_ok Hq).
Qed.

Lemma fold_pairs (kvs : list (str * json)) : forall f k,
  (exists kv, In kv kvs /\ fst kv = k /\ fold_left (fun f kv => fupd f (fst kv) (Some (snd kv))) kvs f k = Some (snd kv)) \/
  ((forall kv, In kv kvs -> fst kv <> k) /\ fold_left (fun f kv => fupd f (fst kv) (Some (snd kv))) kvs f k = f k).
Proof.
  induction kvs as [|kv kvs IH]; intros f k; [right; split; [intros kv []|reflexivity]|]. cbn [fold_left].
  destruct (IH (fupd f (fst kv) (Some (snd kv))) k) as [(kv0 & Hin & Hk & E)|(Hno & E)].
  - left. exists kv0. split; [now right|now split].
  - rewrite E. unfold fupd. destruct (str_eqb_spec (fst kv) k) as [Hk|Hk].
    + left. exists kv. split; [now left|now split].
    + right. split; [|reflexivity]. intros kv' [<-|Hin]; [exact Hk|now apply Hno].
Qed.

Theorem snapshot_agrees s pat kvs :
  Inv s -> do_pget s pat = Ok kvs ->
  forall sb, s_pat sb = kseg_parse pat -> AgreeM sb (val_of s) (fold_ev (fun _ => None) (EPValue kvs)).
Proof.
  intros HI Hp sb Hpat q Hq Hm. unfold do_pget in Hp.
  destruct (reach_bad (data s) (kseg_parse pat)); [discriminate|]. injection Hp as <-. rewrite Hpat in *.
  cbn [fold_ev]. set (P := kseg_parse pat) in *.
  destruct (fold_pairs (map kv_of (collect (data s) [] P)) (fun _ => None) (key_of q)) as [(kv & Hkv & Ek & ->)|(Hno & ->)].
  - apply in_map_iff in Hkv as ([q' e'] & <- & Hin). cbn [kv_of fst snd] in *.
    apply (collect_abs s P q' e' HI) in Hin as (Hl & Hsm).
    pose proof (key_of_inj q' q (stored_key_good s q' e' HI Hl) Hq Ek) as ->. unfold val_of. now rewrite Hsm, Hl.
  - destruct (store_match P q) eqn:Esm; [|reflexivity]. unfold val_of. destruct (abs s q) as [e|] eqn:El; [|reflexivity].
    elim (Hno (kv_of (q, e))); [now apply in_map, collect_abs|reflexivity].
Qed.

(* on a pattern without `#` the two matchers agree on every key (with a trailing `#` they differ on the prefix itself:
   known finding F2) *)
Lemma matchers_agree P q : ~ In Multi P -> sub_match P q = store_match P q.
Proof.
  revert q. induction P as [|x P IH]; intros q Hn; [now destruct q|].
  destruct x as [s| |]; [| |exfalso; apply Hn; now left]; destruct q as [|y q]; cbn [sub_match store_match]; try reflexivity.
  - rewrite IH by (intros H; apply Hn; now right). reflexivity.
  - apply IH. intros H; apply Hn; now right.
Qed.
