(* What a request leaves alone.  Every request kind writes one part of the core and nothing else: the data
   tree with its cached count, the subscriber tree with its table, the ls-subscribers, the publish streams,
   or the lock table; a session start or end is a sequence of such requests.  [step_frame] says so for the
   state, [step_out] for the output.  The rest lifts a relation on single steps through [seq2] / [iter_ops]. *)
From WB Require Import Base.Str Base.Json Model.Key Model.Store Model.Subs Model.Entry Model.Core.
From Coq Require Import Lia.

Ltac crush_op :=
  repeat match goal with
         | |- context [match ?x with _ => _ end] => destruct x eqn:?
         | |- context [if ?x then _ else _] => destruct x eqn:?
         end; try reflexivity.

Lemma crash_res o : is_crash o = false <-> o_res o <> RCrash.
Proof. unfold is_crash. destruct (o_res o); split; congruence. Qed.

Lemma final_app s a b : final s (a ++ b) = final (final s a) b.
Proof. apply fold_left_app. Qed.

Inductive part := PNone | PData | PSubs | PLs | PSpub | PLocks | PSession.

Definition part_of (o : op) : part :=
  match o with
  | OSet _ _ _ _ | OCSet _ _ _ _ _ | ODelete _ _ | OPDelete _ _ | OImport _ => PData
  | OSubscribe _ _ _ _ _ | OPSubscribe _ _ _ _ _ | OUnsubscribe _ _ => PSubs
  | OSubscribeLs _ _ _ | OUnsubscribeLs _ _ => PLs
  | OSPubInit _ _ _ => PSpub
  | OLock _ _ | OAcquire _ _ | ORelease _ _ => PLocks
  | OConnected _ | ODisconnected _ => PSession
  | _ => PNone
  end.

Lemma set_data_id s : set_data s (data s) (len s) = s.
Proof. now destruct s. Qed.
Lemma set_subs_id s : set_subs s (subs s) (subscriptions s) (next_inst s) = s.
Proof. now destruct s. Qed.
Lemma set_ls_id s : set_ls s (lssubs s) (ls_subscriptions s) (next_inst s) = s.
Proof. now destruct s. Qed.
Lemma set_spub_id s : set_spub s (spub_keys s) = s.
Proof. now destruct s. Qed.
Lemma set_locks_id s : set_locks s (locks s) (locked_keys s) (next_req s) = s.
Proof. now destruct s. Qed.

Theorem step_frame s o :
  match part_of o with
  | PNone => fst (step s o) = s
  | PData => exists d n, fst (step s o) = set_data s d n
  | PSubs => exists t m ni, fst (step s o) = set_subs s t m ni
  | PLs => exists l m ni, fst (step s o) = set_ls s l m ni
  | PSpub => exists m, fst (step s o) = set_spub s m
  | PLocks => exists l lk nr, fst (step s o) = set_locks s l lk nr
  | PSession => True
  end.
Proof.
  destruct o; cbn [part_of step fst]; try reflexivity; try exact I.
  all: unfold do_insert, do_delete, do_pdelete, do_import, do_spub_init, do_spub, do_publish,
         do_subscribe, do_psubscribe, do_unsubscribe, do_subscribe_ls, do_unsubscribe_ls, do_lock, do_acquire, do_release.
  all: crush_op; cbn [fst]; repeat eexists.
  (* what is left are the branches that refuse: the part is set to what it was *)
  all: symmetry; first [apply set_data_id|apply set_subs_id|apply set_ls_id|apply set_spub_id|apply set_locks_id].
Qed.

(* events come from data requests, from publishes (in [PNone]) and from the snapshot a subscription starts
   with; ls notes from data requests and ls-subscriptions; lock answers from lock requests *)
Theorem step_out s o :
  let out := snd (step s o) in
  match part_of o with
  | PNone | PSubs => o_ls out = [] /\ o_granted out = [] /\ o_cancelled out = []
  | PData => o_granted out = [] /\ o_cancelled out = []
  | PLs => o_events out = [] /\ o_granted out = [] /\ o_cancelled out = []
  | PSpub => o_events out = [] /\ o_ls out = [] /\ o_granted out = [] /\ o_cancelled out = []
  | PLocks => o_events out = [] /\ o_ls out = []
  | PSession => True
  end.
Proof.
  destruct o; cbn [part_of step snd]; try exact I; try (repeat split; reflexivity).
  all: unfold do_insert, do_delete, do_pdelete, do_import, do_spub_init, do_spub, do_publish,
         do_subscribe, do_psubscribe, do_unsubscribe, do_subscribe_ls, do_unsubscribe_ls, do_lock, do_acquire, do_release.
  all: crush_op; cbn [snd]; repeat split; reflexivity.
Qed.

Lemma step_keeps_data s o :
  part_of o <> PData -> part_of o <> PSession ->
  data (fst (step s o)) = data s /\ len (fst (step s o)) = len s.
Proof.
  intros H1 H2. pose proof (step_frame s o) as F. destruct (part_of o); try contradiction.
  - now rewrite F.
  - now destruct F as (t & m & ni & ->).
  - now destruct F as (l & m & ni & ->).
  - now destruct F as (m & ->).
  - now destruct F as (l & lk & nr & ->).
Qed.

Lemma step_keeps_subs s o : part_of o <> PSubs -> part_of o <> PSession -> subs (fst (step s o)) = subs s.
Proof.
  intros H1 H2. pose proof (step_frame s o) as F. destruct (part_of o); try contradiction.
  - now rewrite F.
  - now destruct F as (d & n & ->).
  - now destruct F as (l & m & ni & ->).
  - now destruct F as (m & ->).
  - now destruct F as (l & lk & nr & ->).
Qed.

(* for session starts and ends: SessionEnd.step_mono *)
Lemma step_next_inst s o : part_of o <> PSession -> next_inst s <= next_inst (fst (step s o)).
Proof.
  intros HP. pose proof (step_frame s o) as F. destruct (part_of o) eqn:P; try contradiction.
  - rewrite F. apply N.le_refl.
  - destruct F as (d & n & ->). apply N.le_refl.
  - destruct o; try discriminate P; cbn [step]; unfold do_subscribe, do_psubscribe, do_unsubscribe; crush_op;
      cbn [fst next_inst set_subs]; lia.
  - destruct o; try discriminate P; cbn [step]; unfold do_subscribe_ls, do_unsubscribe_ls; crush_op;
      cbn [fst next_inst set_ls]; lia.
  - destruct F as (m & ->). apply N.le_refl.
  - destruct F as (l & lk & nr & ->). apply N.le_refl.
Qed.

(* the crash branches: the version overflow of decide, the clean-tree assertions of delete, pattern delete and
   release, and the session steps, which contain such requests *)
Definition can_crash (o : op) : bool :=
  match o with
  | OSet _ _ _ _ | OCSet _ _ _ _ _ | ODelete _ _ | OPDelete _ _ | ORelease _ _ | OConnected _ | ODisconnected _ => true
  | _ => false
  end.

Lemma step_crash s o : can_crash o = false -> o_res (snd (step s o)) <> RCrash.
Proof.
  destruct o; try discriminate; intros _; cbn [step snd out_res o_res]; try discriminate.
  all: unfold do_get, do_cget, do_ls, do_pls, do_spub_init, do_spub, do_publish, do_import, do_subscribe,
         do_psubscribe, do_unsubscribe, do_subscribe_ls, do_unsubscribe_ls, do_lock, do_acquire.
  all: crush_op; cbn [snd o_res out_res]; discriminate.
Qed.

(* the requests of a session end are run like this (SessionEnd.disconnected_run) *)
Definition run_ops (ops : list op) (s : core) : core * output := iter_ops (fun s o => step s o) ops s.

Lemma seq2_ext r f g : f (fst r) = g (fst r) -> seq2 r f = seq2 r g.
Proof. intros H. unfold seq2. now rewrite H. Qed.

Lemma out_app_assoc a b c : out_app (out_app a b) c = out_app a (out_app b c).
Proof. unfold out_app. cbn. now rewrite !app_assoc. Qed.

Lemma seq2_assoc r f g : seq2 (seq2 r f) g = seq2 r (fun s => seq2 (f s) g).
Proof.
  unfold seq2. destruct (is_crash (snd r)) eqn:E; [now rewrite E|]. cbn [fst snd].
  change (is_crash (out_app (snd r) (snd (f (fst r))))) with (is_crash (snd (f (fst r)))).
  destruct (is_crash (snd (f (fst r)))); [reflexivity|]. cbn [fst snd]. now rewrite out_app_assoc.
Qed.

Lemma seq2_unit s r0 f : r0 <> RCrash -> seq2 (s, out_res r0) f = f s.
Proof.
  intros H. destruct r0; try contradiction; unfold seq2; cbn; destruct (f s) as [s' [r' ev ln gr ca]]; reflexivity.
Qed.

Lemma run_ops_app a b s : run_ops (a ++ b) s = seq2 (run_ops a s) (run_ops b).
Proof.
  revert s. induction a as [|o a IH]; intros s.
  - symmetry. now apply seq2_unit.
  - cbn [app]. unfold run_ops in *. cbn [iter_ops]. rewrite seq2_assoc. apply seq2_ext, IH.
Qed.

Lemma run_ops_map {A} (mk : A -> op) xs s : run_ops (map mk xs) s = iter_ops (fun s x => step s (mk x)) xs s.
Proof.
  revert s. unfold run_ops. induction xs as [|x xs IH]; intros s; [reflexivity|]. cbn [map iter_ops]. apply seq2_ext, IH.
Qed.

Lemma run_ops_final ops : forall s, is_crash (snd (run_ops ops s)) = false -> fst (run_ops ops s) = final s ops.
Proof.
  unfold run_ops. induction ops as [|o ops IH]; intros s; [reflexivity|]. cbn [iter_ops]. unfold seq2.
  destruct (is_crash (snd (step s o))) eqn:E; [congruence|]. cbn [fst snd]. apply IH.
Qed.

Section Lift.
  Variable R : core -> core * output -> Prop.
  Hypothesis R_unit : forall s, R s (s, out_res RUnit).
  Hypothesis R_comp : forall s r1 r2, R s r1 -> R (fst r1) r2 -> R s (fst r2, out_app (snd r1) (snd r2)).

  Lemma seq2_lift s r1 f : R s r1 -> (forall s1, R s1 (f s1)) -> R s (seq2 r1 f).
  Proof. intros H1 Hf. unfold seq2. destruct (is_crash (snd r1)); [exact H1|]. now apply R_comp. Qed.

  Lemma iter_ops_lift {A} (f : core -> A -> core * output) l :
    (forall s x, In x l -> R s (f s x)) -> forall s, R s (iter_ops f l s).
  Proof.
    induction l as [|x l IH]; intros Hf s; cbn [iter_ops]; [apply R_unit|].
    apply seq2_lift; [apply Hf; now left|]. apply IH. intros s1 y Hy. apply Hf. now right.
  Qed.

  Lemma run_ops_lift ops : (forall s o, In o ops -> R s (step s o)) -> forall s, R s (run_ops ops s).
  Proof. apply iter_ops_lift. Qed.
End Lift.

Lemma run_ops_preserves (Q : core -> Prop) ops :
  (forall s o, In o ops -> Q s -> Q (fst (step s o))) -> forall s, Q s -> Q (fst (run_ops ops s)).
Proof.
  intros H s. apply (run_ops_lift (fun s r => Q s -> Q (fst r))); [auto|auto|].
  intros s0 o Ho. now apply H.
Qed.
