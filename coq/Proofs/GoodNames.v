(* Stored segment names are regular (not `?`/`#`) and contain no '/': what parse_segments
   produces, so that a stored key re-joined with '/' parses back to the same path. *)
From WB Require Import Base.ListFacts Base.Str Base.StrFacts Model.Key Model.Store Model.Match Proofs.StoreFacts Proofs.TreeInv.

Definition good_seg (k : str) : Prop := kseg_of_str k = Reg k /\ no_sep slash k.

Fixpoint goodn {V} (n : node V) : Prop :=
  match n with
  | Node _ cs =>
      (fix go (cs : list (str * node V)) : Prop :=
         match cs with
         | [] => True
         | (k, c) :: cs' => (good_seg k /\ goodn c) /\ go cs'
         end) cs
  end.

Lemma goodn_unfold {V} (v : option V) cs :
  goodn (Node v cs) <-> Forall (fun kc => good_seg (fst kc) /\ goodn (snd kc)) cs.
Proof. exact (kids_Forall (fun k c => good_seg k /\ goodn c) cs). Qed.

Lemma kseg_reg_str x s : kseg_of_str x = Reg s -> s = x.
Proof. unfold kseg_of_str. destruct (str_eqb x [ch_qmark]); [discriminate|]. destruct (str_eqb x [ch_hash]); [discriminate|]. now intros [= <-]. Qed.

Lemma regular_segments_good l : forall p,
  Forall (no_sep slash) l -> regular_segments l = Ok p -> p = l /\ Forall good_seg p.
Proof.
  induction l as [|s l IH]; intros p Hns H; cbn in H.
  - injection H as <-. split; [reflexivity|constructor].
  - inversion Hns; subst.
    destruct (kseg_of_str s) as [r| |] eqn:Ek; try discriminate.
    destruct (regular_segments l) as [rs|] eqn:El; [|discriminate].
    injection H as <-. pose proof (kseg_reg_str s r Ek). subst r. destruct (IH rs H3 eq_refl) as [-> Hg]. split; [reflexivity|].
    constructor; [|assumption]. split; assumption.
Qed.

Lemma parse_segments_good key p :
  parse_segments key = Ok p -> p = split slash key /\ Forall good_seg p /\ p <> [].
Proof.
  unfold parse_segments. intros H.
  destruct (regular_segments_good _ _ (split_nosep slash key) H) as [-> Hg].
  repeat split; try assumption. apply split_nonempty.
Qed.

Lemma regular_segments_of_good p : Forall good_seg p -> regular_segments p = Ok p.
Proof.
  induction 1 as [|s p [Hs _] Hp IH]; cbn; [reflexivity|]. now rewrite Hs, IH.
Qed.

Lemma parse_join_good p : p <> [] -> Forall good_seg p -> parse_segments (join slash p) = Ok p.
Proof.
  intros Hne Hg. unfold parse_segments. rewrite split_join.
  - now apply regular_segments_of_good.
  - assumption.
  - eapply Forall_impl; [|exact Hg]. now intros a [_ H].
Qed.

Lemma goodn_empty {V} : goodn (@empty_node V).
Proof. exact I. Qed.

Theorem goodn_set_at {V} p (e : V) : forall n, Forall good_seg p -> goodn n -> goodn (set_at p e n).
Proof.
  induction p as [|k p IH]; intros [v cs] Hp Hg; [exact Hg|].
  inversion Hp as [|? ? Hk Hp']; subst.
  cbn [set_at nval nkids]. apply goodn_unfold in Hg. apply goodn_unfold.
  apply (Forall_upd_child (fun k c => good_seg k /\ goodn c)); [assumption| |].
  - intros c [H1 H2]. split; [assumption|now apply IH].
  - split; [assumption|]. apply IH; [assumption|exact I].
Qed.

Lemma goodn_filter {V} (v : option V) g cs :
  Forall (fun kc => good_seg (fst kc) /\ goodn (snd kc)) cs -> goodn (Node v (filter g cs)).
Proof. intros H. now apply goodn_unfold, Forall_filter. Qed.

Theorem goodn_del_at {V} p : forall (n : node V), goodn n -> goodn (del_at p n).
Proof.
  induction p as [|k p IH]; intros [v cs] Hg; [exact Hg|].
  cbn [del_at nkids nval]. destruct (find_child k cs); [|assumption].
  apply goodn_filter, (Forall_mod_child (fun k c => good_seg k /\ goodn c)); [now apply goodn_unfold in Hg|].
  intros c [H1 H2]. split; [assumption|now apply IH].
Qed.

Theorem goodn_delm {V} (n : node V) : forall trav p, goodn n -> goodn (dr_node (delm n trav p)).
Proof.
  intros trav p. revert n trav. induction p as [|[s| |] tail IH]; intros [v cs] trav Hg.
  - rewrite delm_nil. exact Hg.
  - rewrite delm_node_reg. apply goodn_unfold in Hg.
    apply goodn_filter, (Forall_mod_child (fun k c => good_seg k /\ goodn c)); [assumption|].
    intros c [H1 H2]. split; [assumption|now apply IH].
  - rewrite delm_node_wild. apply goodn_unfold in Hg. apply goodn_filter, Forall_map.
    eapply Forall_impl; [|exact Hg]. intros kc [H1 H2]. split; [assumption|now apply IH].
  - destruct tail; [rewrite delm_multi; exact I|now rewrite delm_multi_bad].
Qed.

Lemma lookup_good {V} (n : node V) q : forall e, goodn n -> lookup n q = Some e -> Forall good_seg q.
Proof.
  revert n. induction q as [|k q IH]; intros [v cs] e Hg Hl; [constructor|].
  apply lookup_below in Hl as (c & Hin & Hl). apply goodn_unfold in Hg. rewrite Forall_forall in Hg.
  destruct (Hg _ Hin) as [H1 H2]. constructor; [assumption|]. exact (IH c e H2 Hl).
Qed.
