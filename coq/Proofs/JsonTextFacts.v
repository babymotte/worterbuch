(* C14: the printed text of a message holds no line break (the protocol is line-delimited): escapes are printable,
   and separators are commas, colons and brackets. *)
From WB Require Import Base.Str Base.StrFacts Base.Json Model.JsonText.
From Coq Require Import Lia.

Lemma hex_low_ge n : 48 <= hex_low n.
Proof. unfold hex_low. destruct (N.ltb n 10); lia. Qed.

Lemma esc_char_printable c : Forall (N.le 32) (esc_char c).
Proof.
  unfold esc_char. pose proof (hex_low_ge (c / 16)). pose proof (hex_low_ge (c mod 16)).
  do 7 (destruct (N.eqb c _); [repeat constructor; discriminate|]).
  destruct (N.ltb_spec c 32); repeat constructor; lia.
Qed.

Lemma esc_char_no_newline c : ~ In 10 (esc_char c).
Proof. intros H. pose proof (esc_char_printable c) as P. rewrite Forall_forall in P. apply P in H. lia. Qed.

Lemma print_str_no_newline s : ~ In 10 (print_str s).
Proof.
  unfold print_str. cbn. intros [H|H]; [discriminate|].
  apply in_app_iff in H as [H|[H|[]]]; [|discriminate].
  apply in_flat_map in H as (c & _ & H). now apply esc_char_no_newline in H.
Qed.

Lemma lits_ok_arr l : lits_ok (JArr l) -> Forall lits_ok l.
Proof.
  cbn [lits_ok]. induction l as [|x l IH]; [constructor|]. intros [H1 H2]. constructor; [assumption|now apply IH].
Qed.
Lemma lits_ok_obj l : lits_ok (JObj l) -> Forall (fun kv => lits_ok (snd kv)) l.
Proof.
  cbn [lits_ok]. induction l as [|[k x] l IH]; [constructor|]. intros [H1 H2]. constructor; [assumption|now apply IH].
Qed.

(* C14: every message is written as a single line *)
Theorem print_single_line j : lits_ok j -> ~ In 10 (print j).
Proof.
  induction j as [| b | l | s | l IH | l IH] using json_ind'; intros Hok.
  - cbn. intuition discriminate.
  - destruct b; cbn; intuition discriminate.
  - exact Hok.
  - apply print_str_no_newline.
  - apply lits_ok_arr in Hok. cbn [print]. intros [H|H]; [discriminate|].
    apply in_app_iff in H as [H|[H|[]]]; [|discriminate]. revert H.
    induction l as [|x l IHl]; [contradiction|].
    inversion IH as [|? ? Hx IH']; subst. inversion Hok as [|? ? Hox Hok']; subst.
    destruct l as [|y l'].
    + now apply Hx.
    + intros H. apply in_app_iff in H as [H|[H|H]]; [now apply (Hx Hox)|discriminate|].
      now apply (IHl IH' Hok').
  - apply lits_ok_obj in Hok. cbn [print]. intros [H|H]; [discriminate|].
    apply in_app_iff in H as [H|[H|[]]]; [|discriminate]. revert H.
    induction l as [|[k x] l IHl]; [contradiction|].
    inversion IH as [|? ? Hx IH']; subst. inversion Hok as [|? ? Hox Hok']; subst. cbn [snd] in *.
    destruct l as [|y l'].
    + intros H. apply in_app_iff in H as [H|[H|H]]; [now apply print_str_no_newline in H|discriminate|now apply (Hx Hox)].
    + intros H. apply in_app_iff in H as [H|[H|H]]; [now apply print_str_no_newline in H|discriminate|].
      apply in_app_iff in H as [H|[H|H]]; [now apply (Hx Hox)|discriminate|].
      now apply (IHl IH' Hok').
Qed.
