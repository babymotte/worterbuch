(* The cached entry count (Store.len, what the `len` request answers) is the number of keys that hold a
   value, in every reachable state. *)
From WB Require Import Base.ListFacts Base.Str Base.StrFacts Base.Json Model.Key Model.Consts Model.Store Model.Match Model.Subs
  Model.Entry Model.Core Proofs.Frame Proofs.StoreFacts Proofs.TreeInv Proofs.CoreFacts Proofs.SessionEnd.
From Coq Require Import Lia FinFun.

Local Arguments N.add : simpl never.
Local Arguments N.sub : simpl never.

Definition sum_counts {V} (cs : list (str * node V)) : N :=
  fold_right (fun kc a => count_values (snd kc) + a) 0 cs.
Definition there {V} (o : option V) : N := match o with Some _ => 1 | None => 0 end.

Lemma count_node {V} (v : option V) cs : count_values (Node v cs) = there v + sum_counts cs.
Proof.
  cbn [count_values]. unfold there. f_equal.
  induction cs as [|[k c] cs IH]; cbn [fold_right sum_counts snd]; [reflexivity|].
  unfold sum_counts in IH. now rewrite IH.
Qed.

Lemma sum_cons {V} k (c : node V) cs : sum_counts ((k, c) :: cs) = count_values c + sum_counts cs.
Proof. reflexivity. Qed.

Lemma count_obsolete {V} (c : node V) : is_obsolete c = true -> count_values c = 0.
Proof. destruct c as [[x|] [|kc cs]]; try discriminate. reflexivity. Qed.

Lemma sum_trim {V} (cs : list (str * node V)) : sum_counts (trim_kids cs) = sum_counts cs.
Proof.
  unfold trim_kids. induction cs as [|[k c] cs IH]; [reflexivity|]. cbn [filter snd].
  destruct (is_obsolete c) eqn:E; cbn [negb]; rewrite ?sum_cons, IH; [|reflexivity].
  rewrite (count_obsolete c E). lia.
Qed.

Lemma sum_mod {V} k (f : node V -> node V) cs c :
  find_child k cs = Some c ->
  sum_counts (mod_child k f cs) + count_values c = sum_counts cs + count_values (f c).
Proof.
  induction cs as [|[k' c'] cs IH]; cbn [find_child mod_child]; [discriminate|].
  destruct (str_eqb k k').
  - intros [= ->]. rewrite !sum_cons. lia.
  - intros H. rewrite !sum_cons. specialize (IH H). lia.
Qed.

Lemma sum_upd {V} (d : node V) k f cs :
  match find_child k cs with
  | Some c => sum_counts (upd_child d k f cs) + count_values c = sum_counts cs + count_values (f c)
  | None => sum_counts (upd_child d k f cs) = sum_counts cs + count_values (f d)
  end.
Proof.
  induction cs as [|[k' c'] cs IH]; cbn [find_child upd_child].
  - rewrite sum_cons. change (@sum_counts V []) with 0. lia.
  - destruct (str_eqb k k'); [rewrite !sum_cons; lia|].
    rewrite !sum_cons. destruct (find_child k cs); lia.
Qed.

Theorem count_set_at {V} p (e : V) : forall n,
  count_values (set_at p e n) + there (lookup n p) = count_values n + 1.
Proof.
  induction p as [|k p IH]; intros [v cs].
  - cbn [set_at nkids]. rewrite !count_node, lookup_nil. cbn [nval]. destruct v; cbn; lia.
  - cbn [set_at nval nkids]. rewrite !count_node, lookup_cons.
    pose proof (sum_upd empty_node k (set_at p e) cs) as H.
    destruct (find_child k cs) as [c|].
    + specialize (IH c). lia.
    + specialize (IH empty_node). rewrite lookup_empty in IH. cbn [there] in *.
      change (count_values (@empty_node V)) with 0 in IH. lia.
Qed.

Theorem count_del_at {V} p : forall (n : node V),
  count_values (del_at p n) + there (lookup n p) = count_values n.
Proof.
  induction p as [|k p IH]; intros [v cs].
  - cbn [del_at nkids]. rewrite !count_node, lookup_nil. cbn [nval]. destruct v; cbn; lia.
  - cbn [del_at nval nkids]. rewrite lookup_cons. destruct (find_child k cs) as [c|] eqn:Ef.
    + rewrite !count_node, sum_trim. pose proof (sum_mod k (del_at p) cs c Ef). specialize (IH c). lia.
    + cbn [there]. lia.
Qed.

Lemma count_entries {V} (n : node V) : forall trav, N.of_nat (length (entries n trav)) = count_values n.
Proof.
  induction n as [v cs IH] using node_ind'. intros trav.
  rewrite count_node. cbn [entries]. rewrite app_length, map_length, Nat2N.inj_add.
  assert (E : N.of_nat (length (opt_list v)) = there v) by now destruct v. rewrite E. f_equal.
  induction IH as [|[k c] cs Hc Hcs IHcs]; [reflexivity|].
  rewrite app_length, Nat2N.inj_add, sum_cons. cbn [snd] in Hc. now rewrite Hc, IHcs.
Qed.

Theorem count_delm {V} (n : node V) : forall trav p,
  count_values (dr_node (delm n trav p)) + N.of_nat (length (dr_matches (delm n trav p))) = count_values n.
Proof.
  intros trav p. revert n trav. induction p as [|[s| |] tail IH]; intros [v cs] trav.
  - rewrite delm_nil. cbn [dr_node dr_matches nkids nval]. rewrite map_length, !count_node.
    destruct v; cbn; lia.
  - rewrite delm_reg. destruct (find_child s cs) as [c|] eqn:Ef.
    + cbv zeta. cbn [dr_node dr_matches]. rewrite !count_node, sum_trim.
      pose proof (sum_mod s (fun _ => dr_node (delm c (trav ++ [s]) tail)) cs c Ef) as H.
      specialize (IH c (trav ++ [s])). lia.
    + cbn [dr_node dr_matches length]. rewrite !count_node, sum_trim. lia.
  - rewrite delm_wild. cbv zeta. cbn [dr_node dr_matches]. rewrite !count_node, sum_trim.
    assert (E : sum_counts (map (fun x => (fst (fst x), dr_node (snd x))) (wild_rs trav tail cs)) +
                N.of_nat (length (flat_map (fun x => dr_matches (snd x)) (wild_rs trav tail cs))) = sum_counts cs).
    { unfold wild_rs. induction cs as [|[k c] cs IHcs]; [reflexivity|].
      cbn [map flat_map fst snd]. rewrite app_length, Nat2N.inj_add, !sum_cons.
      specialize (IH c (trav ++ [k])). lia. }
    lia.
  - destruct tail as [|s tail].
    + rewrite delm_multi. cbn [dr_node dr_matches]. rewrite <- entries_collect, count_entries.
      rewrite count_node. cbn. lia.
    + rewrite delm_multi_bad. cbn [dr_node dr_matches length]. lia.
Qed.

Definition LenInv (s : core) : Prop := len s = count_values (data s).

Lemma decide_existed cur new f ex ch e' :
  decide cur new f = DOk ex ch e' -> there cur = if ex then 1 else 0.
Proof. intros H. rewrite (proj1 (decide_ok _ _ _ _ _ _ H)). now destruct cur. Qed.

Lemma insert_len s c k e f : LenInv s -> LenInv (fst (do_insert s c k e f)).
Proof.
  unfold LenInv, do_insert. intros H.
  destruct (check_read_only k c); [exact H|]. destruct (parse_segments k) as [p|]; [|exact H].
  destruct (special_value_bad k (entry_val e)); [exact H|].
  destruct (decide (lookup (data s) p) e f) as [ex ch e'| |] eqn:Ed; [|exact H|exact H].
  cbn [fst len data set_data]. pose proof (count_set_at p e' (data s)) as Hc.
  rewrite (decide_existed _ _ _ _ _ _ Ed) in Hc. destruct ex; lia.
Qed.

Lemma delete_len s c k : LenInv s -> LenInv (fst (do_delete s c k)).
Proof.
  unfold LenInv, do_delete. intros H.
  destruct (check_read_only k c); [exact H|]. destruct (parse_segments k) as [p|]; [|exact H].
  destruct (negb (root_ok (del_at p (data s)))); [exact H|].
  pose proof (count_del_at p (data s)) as Hc.
  destruct (lookup (data s) p); cbn [fst len data set_data there] in *; lia.
Qed.

Lemma pdelete_len s c sk p : LenInv s -> LenInv (fst (do_pdelete s c sk p)).
Proof.
  unfold LenInv, do_pdelete. intros H.
  destruct (if sk then None else check_read_only p c); [exact H|].
  destruct (reach_bad (data s) (kseg_parse p)); [exact H|].
  destruct (negb (root_ok (dr_node (delm (data s) [] (kseg_parse p))))); [exact H|].
  pose proof (count_delm (data s) [] (kseg_parse p)) as Hc.
  destruct (notify_deleted _ _); cbn [fst len data set_data]; lia.
Qed.

(* an import recounts the merged tree, so the count is right afterwards whatever it was before; what does not
   parse is refused and changes nothing *)
Lemma import_len s j : LenInv s -> LenInv (fst (do_import s j)).
Proof.
  unfold LenInv, do_import. intros H. destruct (dec_persisted j); [|exact H].
  destruct (notify_imported _ _); reflexivity.
Qed.

Theorem step_len s o : LenInv s -> LenInv (fst (step s o)).
Proof.
  revert s o. apply session_preserves; [|auto|].
  - intros s o Ho H.
    assert (Hother : part_of o <> PData -> LenInv (fst (step s o))).
    { intros Hd. destruct (step_keeps_data s o Hd Ho) as (Ed & El). unfold LenInv. now rewrite Ed, El. }
    destruct o; try (apply Hother; discriminate); cbn [step].
    + now apply insert_len.
    + now apply insert_len.
    + now apply delete_len.
    + now apply pdelete_len.
    + now apply import_len.
  - intros s c H. destruct (prep_same s c) as (Ed & El & _). unfold LenInv. now rewrite Ed, El.
Qed.

Theorem len_is_count ops : len (final init ops) = count_values (data (final init ops)).
Proof.
  change (LenInv (final init ops)).
  induction ops as [|o ops IH] using rev_ind; [reflexivity|].
  unfold final. rewrite fold_left_app. cbn [fold_left]. now apply step_len.
Qed.

Lemma entries_nodup {V} (n : node V) : forall trav, wfn n -> NoDup (map fst (entries n trav)).
Proof.
  intros trav Hw. rewrite entries_collect. revert n Hw trav. refine (wf_node_ind _ _). intros v cs Hw Hnd IH trav.
  assert (Hpre : forall k c q e, In (k, c) cs -> In (q, e) (collect c (trav ++ [k]) [Multi]) -> exists r, q = trav ++ k :: r).
  { intros k c q e Hin Hq. apply collect_spec in Hq as (r & -> & _); [|exact (wfn_kid _ _ _ _ Hw Hin)].
    exists r. now rewrite <- app_assoc. }
  rewrite collect_multi, map_app, map_map. cbn [fst]. apply NoDup_app_intro.
  - destruct v; cbn; constructor; [intros []|constructor].
  - clear v Hw. induction cs as [|[k c] cs IHcs]; [constructor|]. cbn [flat_map fst snd]. rewrite map_app.
    apply NoDup_cons_iff in Hnd as (Hk & Hnd'). apply NoDup_app_intro.
    + apply (IH k c). now left.
    + apply IHcs; [exact Hnd'|intros k' c' Hin; apply (IH k' c'); now right|].
      intros k' c' q e Hin. apply Hpre. now right.
    + intros q Hq1 Hq2. apply in_map_iff in Hq1 as ([q1 e1] & <- & Hq1).
      destruct (Hpre k c q1 e1 (or_introl eq_refl) Hq1) as (r1 & ->).
      apply in_map_iff in Hq2 as ([q' e] & E & Hq2). apply in_flat_map in Hq2 as ([k2 c2] & Hkc & Hq2).
      destruct (Hpre k2 c2 q' e (or_intror Hkc) Hq2) as (r2 & ->). cbn [fst] in E.
      apply app_inv_head in E. injection E as -> _. apply Hk. apply in_map_iff. now exists (k, c2).
  - intros q Hq1 Hq2. apply in_map_iff in Hq1 as (x & <- & _).
    apply in_map_iff in Hq2 as ([q' e] & E & Hq2). apply in_flat_map in Hq2 as ([k c] & Hkc & Hq2).
    destruct (Hpre k c q' e Hkc Hq2) as (r & ->). cbn [fst] in E.
    rewrite <- (app_nil_r trav) in E at 2. now apply app_inv_head in E.
Qed.

Theorem count_is_keys (n : node entry) :
  wfn n ->
  exists keys, NoDup keys /\ (forall q, In q keys <-> lookup n q <> None) /\
               count_values n = N.of_nat (length keys).
Proof.
  intros Hw. exists (map fst (entries n [])). split; [|split].
  - now apply entries_nodup.
  - intros q. rewrite entries_collect. split.
    + intros Hin. apply in_map_iff in Hin as ([q' e] & <- & Hin).
      apply (collect_spec _ _ _ _ _ Hw) in Hin as (k' & -> & Hl & _). cbn [app fst]. congruence.
    + intros Hne. destruct (lookup n q) as [e|] eqn:El; [|congruence].
      apply in_map_iff. exists (q, e). split; [reflexivity|].
      apply (collect_spec _ _ _ _ _ Hw). exists q. split; [reflexivity|]. split; [exact El|]. now destruct q.
  - rewrite map_length. symmetry. apply count_entries.
Qed.

Lemma NoDup_map_inj {A B} (f : A -> B) l : (forall x y, f x = f y -> x = y) -> NoDup l -> NoDup (map f l).
Proof. apply Injective_map_NoDup. Qed.
