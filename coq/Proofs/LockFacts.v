(* The lock tree (Store::lock, acquire_lock, unlock_all and unlock, store.rs:1019-1114) seen as a map from key
   paths to locks: what a lock, an acquire and a release request do to that map; then the queue of one lock
   (Lock::release and Lock::queue, store.rs:83-107): who waits in it, for which requests. *)
From WB Require Import Base.ListFacts Base.Str Base.StrFacts Base.Json Model.Key Model.Store Model.Entry Model.Core
  Proofs.Frame Proofs.StoreFacts Proofs.TreeInv Proofs.GoodNames.
From Coq Require Import Lia.

Definition labs (s : core) (p : list str) : option lock := lookup (locks s) p.

(* touch_at, setv_at and del_lock_at are the node creation loop, set_value and ndelete of the data tree
   once more: every lock tree that a request builds is a [set_at] or a [del_at] of the old one *)
Lemma lookup_touch_at {V} p : forall (n : node V) q, lookup (touch_at p n) q = lookup n q.
Proof.
  induction p as [|k p IH]; intros [v cs] q; [reflexivity|].
  cbn [touch_at nval nkids]. destruct q as [|k2 q]; [reflexivity|].
  rewrite !lookup_cons. destruct (str_eqb_spec k2 k) as [->|Hn].
  - rewrite find_upd_child_same, IH. destruct (find_child k cs); [reflexivity|apply lookup_empty].
  - now rewrite find_upd_child_other.
Qed.

Lemma touch_at_id {V} p : forall (n : node V) x, lookup n p = Some x -> touch_at p n = n.
Proof.
  induction p as [|k p IH]; intros [v cs] x H; [reflexivity|].
  rewrite lookup_cons in H. destruct (find_child k cs) as [c|] eqn:E; [|discriminate].
  cbn [touch_at nval nkids]. f_equal. apply upd_child_id with c; [exact E|]. now apply IH with x.
Qed.

Lemma setv_touch_set {V} p (e : V) : forall n, setv_at p (Some e) (touch_at p n) = set_at p e n.
Proof.
  induction p as [|k p IH]; intros [v cs]; [reflexivity|].
  cbn [setv_at touch_at set_at nval nkids]. f_equal. apply mod_upd_child. exact IH.
Qed.

Lemma setv_set {V} p (e : V) (n : node V) x :
  lookup n p = Some x -> setv_at p (Some e) n = set_at p e n.
Proof. intros H. rewrite <- (touch_at_id p n x H) at 1. apply setv_touch_set. Qed.

Lemma del_lock_at_eq {V} p : forall (n : node V), del_lock_at p n = del_at p n.
Proof.
  induction p as [|k p IH]; intros [v cs]; [reflexivity|].
  cbn [del_lock_at del_at nkids nval]. destruct (find_child k cs) as [c|] eqn:E; [|reflexivity].
  now rewrite (mod_child_found k (del_lock_at p)), (mod_child_found k (del_at p)), E, IH.
Qed.

Lemma do_lock_eq s c k p :
  parse_segments k = Ok p ->
  do_lock s c k =
  match lookup (locks s) p with
  | Some lk => (s, out_res (if N.eqb c (holder lk) then RUnit else RErr E_KeyIsLocked))
  | None => (set_locks s (set_at p (Lock c []) (locks s)) (push_locked c p (locked_keys s)) (next_req s),
             out_res RUnit)
  end.
Proof.
  intros Hp. unfold do_lock. rewrite Hp, lookup_touch_at.
  destruct (lookup (locks s) p) as [lk|] eqn:El.
  - rewrite (touch_at_id p _ lk El), set_locks_id. now destruct (N.eqb c (holder lk)).
  - now rewrite setv_touch_set.
Qed.

Definition acquire_at (l : node lock) (c : cid) (p : list str) (r : N) : node lock * list N :=
  match lookup l p with
  | Some lk => if N.eqb c (holder lk) then (l, [r])
               else (set_at p (Lock (holder lk) (queue_cand c r (cands lk))) l, [])
  | None => (set_at p (Lock c []) l, [r])
  end.

Lemma do_acquire_eq s c k p :
  parse_segments k = Ok p ->
  do_acquire s c k =
  let r := next_req s in
  let '(l', g) := acquire_at (locks s) c p r in
  (set_locks s l' (push_locked c p (locked_keys s)) (r + 1), Output (RReq r) [] [] g []).
Proof.
  intros Hp. unfold do_acquire, acquire_at. rewrite Hp, lookup_touch_at. cbv zeta.
  destruct (lookup (locks s) p) as [lk|] eqn:El.
  - rewrite setv_touch_set, (touch_at_id p _ lk El). now destruct (N.eqb c (holder lk)).
  - now rewrite setv_touch_set.
Qed.

Definition dropped (c : cid) (cs : list (cid * list N)) : list N :=
  flat_map (fun cr => if N.eqb (fst cr) c then snd cr else []) cs.

Lemma unlock_eq l c p :
  unlock l c p =
  match lookup l p with
  | Some lk =>
      if N.eqb c (holder lk) then
        match cands lk with
        | (c', rs) :: rest => (set_at p (Lock c' rest) l, Ok (Some c'), rs, [], false)
        | [] => (del_at p l, Ok None, [], [], negb (root_ok (del_at p l)))
        end
      else
        (set_at p (Lock (holder lk) (filter (fun cr => negb (N.eqb (fst cr) c)) (cands lk))) l,
         Err E_KeyIsLocked, [], dropped c (cands lk), false)
  | None => (l, Err E_KeyIsNotLocked, [], [], false)
  end.
Proof.
  unfold unlock. destruct (lookup l p) as [lk|] eqn:El; [|reflexivity].
  destruct (N.eqb c (holder lk)); [destruct (cands lk) as [|[c' rs] rest]|].
  - now rewrite del_lock_at_eq.
  - now rewrite (setv_set p _ l lk El).
  - now rewrite (setv_set p _ l lk El).
Qed.

Definition LInv (s : core) : Prop := wfn (locks s).

Lemma LInv_init : LInv init.
Proof. exact wfn_empty. Qed.

Theorem do_lock_spec s c k p :
  parse_segments k = Ok p -> LInv s ->
  let r := do_lock s c k in
  LInv (fst r) /\
  match labs s p with
  | None => o_res (snd r) = RUnit /\
            (forall q, labs (fst r) q = if path_eqb p q then Some (Lock c []) else labs s q)
  | Some lk =>
      (forall q, labs (fst r) q = labs s q) /\
      (if N.eqb c (holder lk) then o_res (snd r) = RUnit else o_res (snd r) = RErr E_KeyIsLocked)
  end /\
  o_granted (snd r) = [] /\ o_cancelled (snd r) = [].
Proof.
  intros Hp HI. cbv zeta. rewrite (do_lock_eq s c k p Hp). unfold labs.
  destruct (lookup (locks s) p) as [lk|]; cbn [fst snd].
  - split; [exact HI|]. split; [|split; reflexivity]. split; [reflexivity|].
    now destruct (N.eqb c (holder lk)).
  - split; [now apply wfn_set_at|]. split; [|split; reflexivity]. split; [reflexivity|].
    intros q. apply lookup_set_at.
Qed.

Theorem do_acquire_spec s c k p :
  parse_segments k = Ok p -> LInv s ->
  let r := do_acquire s c k in
  let rq := next_req s in
  LInv (fst r) /\ o_res (snd r) = RReq rq /\ next_req (fst r) = rq + 1 /\ o_cancelled (snd r) = [] /\
  match labs s p with
  | None => o_granted (snd r) = [rq] /\
            (forall q, labs (fst r) q = if path_eqb p q then Some (Lock c []) else labs s q)
  | Some lk =>
      if N.eqb c (holder lk)
      then o_granted (snd r) = [rq] /\ (forall q, labs (fst r) q = labs s q)
      else o_granted (snd r) = [] /\
           (forall q, labs (fst r) q =
                      if path_eqb p q then Some (Lock (holder lk) (queue_cand c rq (cands lk))) else labs s q)
  end.
Proof.
  intros Hp HI. cbv zeta. rewrite (do_acquire_eq s c k p Hp). cbv zeta. unfold labs, acquire_at.
  destruct (lookup (locks s) p) as [lk|]; [destruct (N.eqb c (holder lk))|]; cbn [fst snd].
  - repeat split. exact HI.
  - repeat split; [now apply wfn_set_at|]. intros q. apply lookup_set_at.
  - repeat split; [now apply wfn_set_at|]. intros q. apply lookup_set_at.
Qed.

Theorem unlock_spec l c p :
  wfn l ->
  let '(l', r, granted, cancelled, crash) := unlock l c p in
  wfn l' /\
  match lookup l p with
  | None => r = Err E_KeyIsNotLocked /\ granted = [] /\ cancelled = [] /\ l' = l
  | Some lk =>
      if N.eqb c (holder lk) then
        cancelled = [] /\
        match cands lk with
        | [] => r = Ok None /\ granted = [] /\
                (forall q, lookup l' q = if path_eqb p q then None else lookup l q)
        | (c', rs) :: rest =>
            r = Ok (Some c') /\ granted = rs /\ crash = false /\
            (forall q, lookup l' q = if path_eqb p q then Some (Lock c' rest) else lookup l q)
        end
      else
        r = Err E_KeyIsLocked /\ granted = [] /\ crash = false /\
        cancelled = flat_map (fun cr => if N.eqb (fst cr) c then snd cr else []) (cands lk) /\
        (forall q, lookup l' q =
                   if path_eqb p q
                   then Some (Lock (holder lk) (filter (fun cr => negb (N.eqb (fst cr) c)) (cands lk)))
                   else lookup l q)
  end.
Proof.
  intros Hw. rewrite unlock_eq.
  destruct (lookup l p) as [lk|]; [destruct (N.eqb c (holder lk)); [destruct (cands lk) as [|[c' rs] rest]|]|].
  - repeat split; [now apply wfn_del_at|]. intros q. now apply lookup_del_at.
  - repeat split; [now apply wfn_set_at|]. intros q. apply lookup_set_at.
  - repeat split; [now apply wfn_set_at|]. intros q. apply lookup_set_at.
  - repeat split. exact Hw.
Qed.

(* C06: waiting clients become holders in the order in which they first asked: a repeated request
   keeps the client's place, a new client goes to the end, nobody else moves *)
Lemma queue_cand_order c r l :
  map fst (queue_cand c r l) = if has_client c l then map fst l else map fst l ++ [c].
Proof.
  induction l as [|[c' rs] l IH]; cbn; [reflexivity|].
  destruct (N.eqb c c') eqn:E; cbn; [reflexivity|]. rewrite IH. now destruct (has_client c l).
Qed.

Definition waits (cs : list (cid * list N)) (c : cid) (r : N) : Prop := exists rs, In (c, rs) cs /\ In r rs.

Lemma waits_cons c0 rs0 cs c r : waits ((c0, rs0) :: cs) c r <-> (c = c0 /\ In r rs0) \/ waits cs c r.
Proof.
  split.
  - intros (rs & [[= -> ->]|Hin] & Hr); [left; now split|right; now exists rs].
  - intros [(-> & Hr)|(rs & Hin & Hr)]; [exists rs0|exists rs]; (split; [|exact Hr]); [now left|now right].
Qed.

Lemma has_client_existsb c (l : list (cid * list N)) : has_client c l = existsb (N.eqb c) (map fst l).
Proof. induction l as [|[c' rs] l IH]; cbn; [reflexivity|]. now rewrite IH. Qed.

Lemma existsb_cid_In c l : existsb (N.eqb c) l = true <-> In c l.
Proof.
  rewrite existsb_exists. split.
  - intros (x & Hin & He). apply N.eqb_eq in He. now subst.
  - intros H. exists c. split; [exact H|apply N.eqb_refl].
Qed.

Lemma queue_cand_waits c nr cs c' r :
  waits (queue_cand c nr cs) c' r <-> waits cs c' r \/ (c' = c /\ r = nr).
Proof.
  induction cs as [|[c2 rs2] cs IH]; cbn [queue_cand].
  - rewrite waits_cons. cbn [In]. split; [|intros [(rs & [] & _)|(-> & ->)]; auto].
    intros [(-> & [<-|[]])|(rs & [] & _)]. auto.
  - destruct (N.eqb_spec c c2) as [->|Hne]; rewrite !waits_cons; [|rewrite IH; tauto].
    rewrite in_app_iff. cbn [In]. intuition congruence.
Qed.

Lemma queue_cand_nodup c nr cs :
  (forall c' rs, In (c', rs) cs -> NoDup rs) -> ~ waits cs c nr ->
  forall c' rs, In (c', rs) (queue_cand c nr cs) -> NoDup rs.
Proof.
  intros Hnd Hw. induction cs as [|[c2 rs2] cs IH]; cbn [queue_cand].
  - intros c' rs [[= <- <-]|[]]. repeat constructor. intros [].
  - assert (Hnd' : forall c' rs, In (c', rs) cs -> NoDup rs) by (intros c' rs H; apply (Hnd c' rs); now right).
    rewrite waits_cons in Hw.
    destruct (N.eqb_spec c c2) as [->|Hne]; intros c' rs [[= <- <-]|Hin]; [|now apply Hnd' with c'| |].
    + apply NoDup_snoc; [apply (Hnd c2 rs2); now left|]. intros Hr. apply Hw. left. now split.
    + apply (Hnd c2 rs2). now left.
    + apply IH with c'; [exact Hnd'| |exact Hin]. intros H. apply Hw. now right.
Qed.

Lemma dropped_cons c c' rs cs : dropped c ((c', rs) :: cs) = (if N.eqb c' c then rs else []) ++ dropped c cs.
Proof. reflexivity. Qed.

Lemma flat_none c (cs : list (cid * list N)) : ~ In c (map fst cs) -> dropped c cs = [].
Proof.
  induction cs as [|[c' rs] cs IH]; [reflexivity|]. rewrite dropped_cons. cbn [map fst]. intros Hn.
  destruct (N.eqb_spec c' c) as [->|Hne]; [exfalso; apply Hn; now left|].
  apply IH. intros Hi. apply Hn. now right.
Qed.

Lemma NoDup_dropped c (cs : list (cid * list N)) :
  NoDup (map fst cs) -> (forall c' rs, In (c', rs) cs -> NoDup rs) ->
  NoDup (dropped c cs).
Proof.
  induction cs as [|[c' rs] cs IH]; intros Hnd Hrs; [constructor|]. rewrite dropped_cons.
  inversion Hnd as [|? ? Hx Hnd']; subst.
  destruct (N.eqb_spec c' c) as [->|Hne].
  - rewrite flat_none by exact Hx. rewrite app_nil_r. apply (Hrs c rs). now left.
  - apply IH; [exact Hnd'|]. intros c2 rs2 Hi. apply (Hrs c2 rs2). now right.
Qed.

Lemma In_dropped c (cs : list (cid * list N)) r :
  In r (dropped c cs) <-> waits cs c r.
Proof.
  unfold dropped. rewrite in_flat_map. split.
  - intros ([c' rs] & Hin & Hr). cbn [fst snd] in Hr.
    destruct (N.eqb_spec c' c) as [->|Hne]; [now exists rs|destruct Hr].
  - intros (rs & Hin & Hr). exists (c, rs). split; [exact Hin|]. cbn [fst snd]. now rewrite N.eqb_refl.
Qed.
