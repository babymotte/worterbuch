(* Lock histories: the lock table through every history of requests and session ends.

   - the line of a key (holder first, then the waiting clients in the order in which they first
     asked) evolves exactly like the abstract machine [astep]: a lock on a free key starts the line,
     an acquire appends its client unless it already stands in the line, a release or a session end
     removes exactly that client, nothing else changes any line;
   - every acquire request is confirmed at most once, exactly in the step in which its client
     becomes the holder, or cancelled at most once, exactly when its client leaves the line; an id is
     never both, and until then it is pending in exactly one place;
   - the debug assertion that Store::unlock reaches (delete_lock_node: lock tree clean after the removal) never
     fires. *)
From WB Require Import Base.ListFacts Base.Str Base.StrFacts Base.Json Model.Key Model.Consts Model.Store Model.Match
  Model.Subs Model.Entry Model.Core Proofs.Frame Proofs.StoreFacts Proofs.TreeInv Proofs.LockFacts Proofs.SessionEnd.
From Coq Require Import Lia Permutation.

Definition line (l : node lock) (p : list str) : list cid :=
  match lookup l p with Some lk => holder lk :: map fst (cands lk) | None => [] end.

Definition pend (l : node lock) (p : list str) (c : cid) (r : N) : Prop :=
  exists lk rs, lookup l p = Some lk /\ In (c, rs) (cands lk) /\ In r rs.

Definition notc (c : cid) (l : list cid) : list cid := filter (fun x => negb (N.eqb x c)) l.

Definition aline := list str -> list cid.
Definition aupd (a : aline) (p : list str) (f : list cid -> list cid) : aline :=
  fun q => if path_eqb p q then f (a q) else a q.

Definition astep (a : aline) (o : op) : aline :=
  match o with
  | OLock c k => match parse_segments k with
                 | Ok p => aupd a p (fun l => match l with [] => [c] | _ => l end)
                 | Err _ => a end
  | OAcquire c k => match parse_segments k with
                    | Ok p => aupd a p (fun l => if existsb (N.eqb c) l then l else l ++ [c])
                    | Err _ => a end
  | ORelease c k => match parse_segments k with Ok p => aupd a p (notc c) | Err _ => a end
  | ODisconnected c => if N.eqb c 0 then a else fun q => notc c (a q)
  | _ => a
  end.

(* the acquire clause of [astep] *)
Definition enq (c : cid) (L : list cid) : list cid := if existsb (N.eqb c) L then L else L ++ [c].

(* [line l p] is [lline (lookup l p)], and [pend l p] is [lpend (lookup l p)] *)
Definition lline (X : option lock) : list cid :=
  match X with Some lk => holder lk :: map fst (cands lk) | None => [] end.
Definition lpend (X : option lock) (c : cid) (r : N) : Prop :=
  exists lk rs, X = Some lk /\ In (c, rs) (cands lk) /\ In r rs.

Lemma lpend_some lk c r : lpend (Some lk) c r <-> waits (cands lk) c r.
Proof.
  split.
  - intros (lk' & rs & [= <-] & H). now exists rs.
  - intros (rs & H). now exists lk, rs.
Qed.

Lemma lpend_waits X c r : NoDup (lline X) -> lpend X c r -> In c (lline X) /\ hd_error (lline X) <> Some c.
Proof.
  intros Hnd (lk & rs & -> & Hin & _). apply NoDup_cons_iff in Hnd as (Hh & _).
  apply (in_map fst) in Hin. split; [now right|]. cbn. intros [= E]. now rewrite E in Hh.
Qed.

Lemma pend_at l p lk c r : lookup l p = Some lk -> (pend l p c r <-> waits (cands lk) c r).
Proof. intros El. unfold pend. rewrite El. apply lpend_some. Qed.

Lemma line_at l p lk : lookup l p = Some lk -> line l p = holder lk :: map fst (cands lk).
Proof. intros El. unfold line. now rewrite El. Qed.

Lemma line_free l p : lookup l p = None -> line l p = [].
Proof. intros El. unfold line. now rewrite El. Qed.

(* the invariant of a lock table [l]; [nr] is the next request id to be handed out *)
Record LT (l : node lock) (nr : N) : Prop := {
  lt_wf : wfn l;
  lt_clean : cleann l;
  lt_line : forall p, NoDup (line l p);
  lt_rs : forall p lk c rs, lookup l p = Some lk -> In (c, rs) (cands lk) -> NoDup rs;
  lt_fresh : forall p c r, pend l p c r -> r < nr;
  lt_uniq : forall p c r p' c', pend l p c r -> pend l p' c' r -> p = p' /\ c = c' }.

Lemma LT_mono l nr nr' : LT l nr -> nr <= nr' -> LT l nr'.
Proof.
  intros [H1 H2 H3 H4 H5 H6] Hle. split; try assumption.
  intros p c r Hp. specialize (H5 p c r Hp). lia.
Qed.

Lemma notc_notin c l : ~ In c l -> notc c l = l.
Proof.
  intros Hn. apply filter_all. intros x Hx. destruct (N.eqb_spec x c) as [->|]; [contradiction|reflexivity].
Qed.

Lemma notc_cons c x l : notc c (x :: l) = if N.eqb x c then notc c l else x :: notc c l.
Proof. unfold notc. cbn [filter]. now destruct (N.eqb x c). Qed.

Lemma notc_idem c l : notc c (notc c l) = notc c l.
Proof. apply filter_all. intros x Hx. now apply filter_In in Hx. Qed.

Lemma In_notc c l x : In x (notc c l) <-> In x l /\ x <> c.
Proof. unfold notc. now rewrite filter_In, Bool.negb_true_iff, N.eqb_neq. Qed.

Lemma hd_error_In {A} (l : list A) x : hd_error l = Some x -> In x l.
Proof. destruct l; [discriminate|]. intros [= ->]. now left. Qed.

Lemma hd_notc c l c' : hd_error l = Some c' -> c' <> c -> hd_error (notc c l) = Some c'.
Proof.
  destruct l as [|x l]; [discriminate|]. cbn. intros [= ->] Hne.
  destruct (N.eqb_spec c' c); [contradiction|reflexivity].
Qed.

Lemma map_fst_filter_notc c (cs : list (cid * list N)) :
  map fst (filter (fun cr => negb (N.eqb (fst cr) c)) cs) = notc c (map fst cs).
Proof.
  induction cs as [|[c' rs] cs IH]; [reflexivity|]. cbn.
  destruct (negb (N.eqb c' c)); cbn; now rewrite IH.
Qed.

(* the table [l] with [X] in the place of the lock of [p] *)
Definition put (p : list str) (X : option lock) (l : node lock) : node lock :=
  match X with Some lk => set_at p lk l | None => del_at p l end.

Section PointUpdate.
  Variables (l : node lock) (nr : N) (p : list str) (X : option lock).
  Hypothesis HLT : LT l nr.
  Let l' := put p X l.

  Lemma lookup_put q : lookup l' q = if path_eqb p q then X else lookup l q.
  Proof. unfold l', put. destruct X; [apply lookup_set_at|apply lookup_del_at, HLT]. Qed.

  Lemma line_upd q : line l' q = if path_eqb p q then lline X else line l q.
  Proof. unfold line. rewrite lookup_put. now destruct (path_eqb p q). Qed.

  Lemma line_aupd f : lline X = f (line l p) -> forall q, line l' q = aupd (line l) p f q.
  Proof. intros HX q. rewrite line_upd. unfold aupd. destruct (path_eqb_spec p q) as [<-|]; [exact HX|reflexivity]. Qed.

  Lemma pend_upd q c r : pend l' q c r <-> if path_eqb p q then lpend X c r else pend l q c r.
  Proof. unfold pend. rewrite lookup_put. now destruct (path_eqb p q). Qed.

  (* the new lock is well formed, and what is pending on it was pending on the old one, or is the
     fresh request [nr] of client [c]: [nr < nr'] puts that id below the new bound ([lt_fresh]); it is apart
     from the older ids ([lt_uniq]) because they are below [nr] *)
  Lemma LT_update nr' c :
    nr <= nr' ->
    NoDup (lline X) ->
    (forall lk c' rs, X = Some lk -> In (c', rs) (cands lk) -> NoDup rs) ->
    (forall c' r, lpend X c' r -> pend l p c' r \/ (c' = c /\ r = nr /\ nr < nr')) ->
    LT l' nr'.
  Proof.
    intros Hle HX1 HX2 HX3. pose proof HLT as [H1 H2 H3 H4 H5 H6].
    assert (Hold : forall q c' r, pend l' q c' r ->
                   pend l q c' r \/ (q = p /\ c' = c /\ r = nr /\ nr < nr')).
    { intros q c' r Hp. rewrite pend_upd in Hp. destruct (path_eqb_spec p q) as [<-|Hne]; [|now left].
      destruct (HX3 c' r Hp) as [H|H]; [now left|now right]. }
    split.
    - unfold l', put. destruct X; [now apply wfn_set_at|now apply wfn_del_at].
    - unfold l', put. destruct X; [now apply cleann_set_at|now apply cleann_del_at].
    - intros q. rewrite line_upd. destruct (path_eqb p q); [exact HX1|apply H3].
    - intros q lk c' rs Hlk. rewrite lookup_put in Hlk. destruct (path_eqb p q); eauto.
    - intros q c' r Hp. destruct (Hold _ _ _ Hp) as [Hp0|(_ & _ & -> & Hlt)]; [|exact Hlt].
      specialize (H5 _ _ _ Hp0). lia.
    - intros q c1 r q2 c2 Hp1 Hp2.
      destruct (Hold _ _ _ Hp1) as [Hp1'|(-> & -> & -> & _)], (Hold _ _ _ Hp2) as [Hp2'|(-> & -> & E & _)].
      + exact (H6 _ _ _ _ _ Hp1' Hp2').
      + subst r. specialize (H5 _ _ _ Hp1'). lia.
      + specialize (H5 _ _ _ Hp2'). lia.
      + now split.
  Qed.
End PointUpdate.

(* client [c] gives up its place in the lines of the keys in [P]: the table [l] becomes [l'], the requests [g]
   are confirmed (each to a client that now holds its key) and the requests [x], all of [c], are cancelled;
   every other pending request stays where it is *)
Record released (c : cid) (P : list str -> bool) (l l' : node lock) (g x : list N) : Prop := {
  rl_line : forall q, line l' q = if P q then notc c (line l q) else line l q;
  rl_pend : forall q c' r, pend l' q c' r <-> pend l q c' r /\ ~ In r (g ++ x);
  rl_grant : forall r, In r g -> exists q c', pend l q c' r /\ c' <> c /\ hd_error (line l' q) = Some c';
  rl_cancel : forall r, In r x -> exists q, P q = true /\ pend l q c r;
  rl_nodup : NoDup (g ++ x) }.

Lemma released_none c P l : (forall q, P q = true -> ~ In c (line l q)) -> released c P l l [] [].
Proof.
  intros HP. split; [|cbn; tauto|intros r []|intros r []|constructor].
  intros q. destruct (P q) eqn:E; [|reflexivity]. symmetry. now apply notc_notin, HP.
Qed.

Lemma released_cover c P l l' g x :
  released c P l l' g x -> (forall q, In c (line l q) -> P q = true) -> released c (fun _ => true) l l' g x.
Proof.
  intros [Hl Hp Hg Hx Hnd] HP. split; try assumption.
  - intros q. rewrite Hl. destruct (P q) eqn:E; [reflexivity|]. symmetry. apply notc_notin. intros Hin.
    rewrite (HP q Hin) in E. discriminate.
  - intros r Hr. destruct (Hx r Hr) as (q & _ & H). now exists q.
Qed.

Lemma released_trans c P1 P2 l l1 l2 g1 x1 g2 x2 :
  released c P1 l l1 g1 x1 -> released c P2 l1 l2 g2 x2 ->
  released c (fun q => P1 q || P2 q) l l2 (g1 ++ g2) (x1 ++ x2).
Proof.
  intros [Hl1 Hp1 Hc1 Hd1 He1] [Hl2 Hp2 Hc2 Hd2 He2].
  split.
  - intros q. rewrite Hl2, Hl1. destruct (P1 q), (P2 q); cbn [orb]; try reflexivity. apply notc_idem.
  - intros q c' r. rewrite Hp2, Hp1, !in_app_iff. tauto.
  - intros r Hr. apply in_app_iff in Hr as [Hr|Hr].
    + destruct (Hc1 r Hr) as (q & c' & Hp & Hne & Hhd). exists q, c'. split; [exact Hp|]. split; [exact Hne|].
      rewrite Hl2. destruct (P2 q); [now apply hd_notc|exact Hhd].
    + destruct (Hc2 r Hr) as (q & c' & Hp & Hne & Hhd). exists q, c'.
      split; [now apply Hp1 in Hp|now split].
  - intros r Hr. apply in_app_iff in Hr as [Hr|Hr].
    + destruct (Hd1 r Hr) as (q & HP & Hp). exists q. rewrite HP. now split.
    + destruct (Hd2 r Hr) as (q & HP & Hp). exists q. rewrite HP, Bool.orb_true_r.
      split; [reflexivity|now apply Hp1 in Hp].
  - (* what the second step resolves was still pending after the first *)
    apply Permutation_NoDup with ((g1 ++ x1) ++ (g2 ++ x2)).
    { rewrite <- !app_assoc. apply Permutation_app_head.
      rewrite !app_assoc. apply Permutation_app_tail. apply Permutation_app_comm. }
    apply NoDup_app_intro; [exact He1|exact He2|]. intros r Hr1 Hr2.
    apply in_app_iff in Hr2 as [Hr2|Hr2].
    + destruct (Hc2 r Hr2) as (q & c' & Hp & _). now apply Hp1 in Hp.
    + destruct (Hd2 r Hr2) as (q & _ & Hp). now apply Hp1 in Hp.
Qed.

(* [c] leaves the line of the one key [p], whose lock [lk] becomes [X].  What has to be said about [X], premise by
   premise: its line is the old one without [c] (rl_line); who waits on it waited before, with the same ids ([LT] of
   the new table, and rl_pend from left to right); every id that waited still waits or is in [g ++ x] (rl_pend from
   right to left); the last three are rl_grant, rl_cancel and rl_nodup at [p] *)
Lemma released_at l nr p lk X c g x :
  LT l nr -> lookup l p = Some lk ->
  lline X = notc c (holder lk :: map fst (cands lk)) ->
  (forall lk', X = Some lk' -> incl (cands lk') (cands lk)) ->
  (forall c' r, waits (cands lk) c' r -> lpend X c' r \/ In r (g ++ x)) ->
  (forall r, In r g -> exists c', waits (cands lk) c' r /\ hd_error (lline X) = Some c') ->
  (forall r, In r x -> waits (cands lk) c r) ->
  NoDup (g ++ x) ->
  LT (put p X l) nr /\ released c (path_eqb p) l (put p X l) g x.
Proof.
  intros HLT El HX Hsub Hall Hg Hx Hnd.
  pose proof HLT as [_ _ Hline Hrs _ Huniq]. rewrite <- (line_at l p lk El) in HX.
  pose proof (fun c' r => pend_at l p lk c' r El) as Hpend.
  assert (HndX : NoDup (lline X)). { rewrite HX. apply NoDup_filter, Hline. }
  assert (Hold : forall c' r, lpend X c' r -> pend l p c' r).
  { intros c' r (lk' & rs & E & Hin & Hr). exists lk, rs.
    split; [exact El|]. split; [exact (Hsub lk' E _ Hin)|exact Hr]. }
  assert (Hres : forall r, In r (g ++ x) -> exists c', pend l p c' r /\ (c' = c \/ hd_error (lline X) = Some c')).
  { intros r Hr. apply in_app_iff in Hr as [Hr|Hr].
    - destruct (Hg r Hr) as (c' & Hp & Hhd). exists c'. split; [now apply Hpend|now right].
    - exists c. split; [now apply Hpend, Hx|now left]. }
  (* who still waits at [p] is neither [c] nor the holder, so its requests are not among the resolved *)
  assert (Hkeep : forall c' r, lpend X c' r -> ~ In r (g ++ x)).
  { intros c' r Hp Hr. destruct (lpend_waits X c' r HndX Hp) as (Hin & Hhd).
    destruct (Hres r Hr) as (c2 & Hp2 & Hc2). destruct (Huniq _ _ _ _ _ (Hold _ _ Hp) Hp2) as (_ & <-).
    destruct Hc2 as [->|E]; [|contradiction]. rewrite HX in Hin. apply In_notc in Hin. now destruct Hin. }
  split.
  - apply (LT_update l nr p X HLT nr c (N.le_refl nr) HndX).
    + intros lk' c' rs E Hin. exact (Hrs p lk c' rs El (Hsub lk' E _ Hin)).
    + intros c' r Hp. left. now apply Hold.
  - split.
    + exact (line_aupd l nr p X HLT _ HX).
    + intros q c' r. rewrite (pend_upd l nr p X HLT). destruct (path_eqb_spec p q) as [<-|Hne].
      * split; [intros Hp; split; [now apply Hold|now apply Hkeep with c']|].
        intros (Hp & Hn). apply Hpend in Hp. now destruct (Hall _ _ Hp).
      * split; [|tauto]. intros Hp. split; [exact Hp|]. intros Hr. destruct (Hres r Hr) as (c2 & Hp2 & _).
        now destruct (Huniq _ _ _ _ _ Hp2 Hp).
    + intros r Hr. destruct (Hg r Hr) as (c' & Hp & Hhd). exists p, c'. split; [now apply Hpend|].
      split; [|now rewrite (line_upd l nr p X HLT), path_eqb_refl].
      apply hd_error_In in Hhd. rewrite HX in Hhd. now apply In_notc in Hhd.
    + intros r Hr. exists p. split; [apply path_eqb_refl|now apply Hpend, Hx].
    + exact Hnd.
Qed.

Lemma unlock_hist l nr c p :
  LT l nr ->
  let '(l', _, g, x, crash) := unlock l c p in
  crash = false /\ LT l' nr /\ released c (path_eqb p) l l' g x.
Proof.
  intros HLT. pose proof HLT as [_ Hcl Hline Hrs _ _].
  rewrite unlock_eq. destruct (lookup l p) as [lk|] eqn:El.
  2:{ split; [reflexivity|]. split; [exact HLT|]. apply released_none. intros q Hq.
      destruct (path_eqb_spec p q) as [E|]; [subst q|discriminate]. now rewrite (line_free l p El). }
  pose proof (Hline p) as Hlp. rewrite (line_at l p lk El) in Hlp. apply NoDup_cons_iff in Hlp as (Hh & Hnd).
  destruct (N.eqb_spec c (holder lk)) as [Hc|Hc]; [destruct (cands lk) as [|[c2 rs2] rest] eqn:Ec|].
  - split. { apply Bool.negb_false_iff, root_ok_spec. now apply cleann_del_at. }
    apply (released_at l nr p lk None c [] [] HLT El); rewrite ?Ec.
    + rewrite Hc. cbn [map]. now rewrite notc_cons, N.eqb_refl.
    + discriminate.
    + intros c' r (rs & [] & _).
    + intros r [].
    + intros r [].
    + constructor.
  - split; [reflexivity|]. cbn [map fst] in Hh, Hnd.
    apply (released_at l nr p lk (Some (Lock c2 rest)) c rs2 [] HLT El); rewrite ?Ec.
    + rewrite Hc. cbn [lline holder cands map fst]. rewrite notc_cons, N.eqb_refl. symmetry. now apply notc_notin.
    + intros lk' [= <-]. apply incl_tl, incl_refl.
    + intros c' r (rs & [[= -> ->]|Hin] & Hr).
      * right. now rewrite app_nil_r.
      * left. apply lpend_some. now exists rs.
    + intros r Hr. exists c2. split; [|reflexivity]. exists rs2. split; [now left|exact Hr].
    + intros r [].
    + rewrite app_nil_r. apply (Hrs p lk c2 rs2 El). rewrite Ec. now left.
  - split; [reflexivity|].
    apply (released_at l nr p lk (Some (Lock (holder lk) (filter (fun cr => negb (N.eqb (fst cr) c)) (cands lk))))
             c [] _ HLT El).
    + cbn [lline holder cands]. rewrite map_fst_filter_notc, notc_cons.
      destruct (N.eqb_spec (holder lk) c) as [E|]; [now symmetry in E|reflexivity].
    + intros lk' [= <-] e He. now apply filter_In in He.
    + intros c' r (rs & Hin & Hr). destruct (N.eqb_spec c' c) as [->|Hne].
      * right. apply In_dropped. now exists rs.
      * left. apply lpend_some. exists rs. split; [|exact Hr]. apply filter_In. split; [exact Hin|].
        cbn [fst]. destruct (N.eqb_spec c' c); [contradiction|reflexivity].
    + intros r [].
    + intros r Hr. now apply In_dropped in Hr.
    + apply NoDup_dropped; [exact Hnd|]. intros c' rs Hin. exact (Hrs p lk c' rs El Hin).
Qed.

Lemma unlock_paths_hist c : forall ps l nr,
  LT l nr ->
  let '(l', g, x, crash) := unlock_paths l c ps in
  crash = false /\ LT l' nr /\ released c (fun q => existsb (fun p => path_eqb p q) ps) l l' g x.
Proof.
  induction ps as [|p ps IH]; intros l nr HLT.
  - split; [reflexivity|]. split; [exact HLT|]. apply released_none. intros q [=].
  - cbn [unlock_paths]. pose proof (unlock_hist l nr c p HLT) as H1.
    destruct (unlock l c p) as [[[[l1 r1] g1] x1] cr1]. destruct H1 as (-> & HLT1 & H1).
    specialize (IH l1 nr HLT1). destruct (unlock_paths l1 c ps) as [[[l2 g2] x2] cr2].
    destruct IH as (-> & HLT2 & H2).
    split; [reflexivity|]. split; [exact HLT2|]. exact (released_trans _ _ _ _ _ _ _ _ _ _ H1 H2).
Qed.

Lemma queue_hist l nr c p lk :
  LT l nr -> lookup l p = Some lk -> c <> holder lk ->
  let l' := set_at p (Lock (holder lk) (queue_cand c nr (cands lk))) l in
  LT l' (nr + 1) /\ (forall q, line l' q = aupd (line l) p (enq c) q) /\
  (forall q c' r, pend l' q c' r <-> pend l q c' r \/ (q = p /\ c' = c /\ r = nr)).
Proof.
  intros HLT El Hc l'. pose proof HLT as [_ _ Hline Hrs Hfresh _].
  set (X := Some (Lock (holder lk) (queue_cand c nr (cands lk)))).
  assert (HX : lline X = enq c (line l p)).
  { rewrite (line_at l p lk El). unfold X, enq. cbn [lline holder cands existsb]. rewrite queue_cand_order, has_client_existsb.
    destruct (N.eqb_spec c (holder lk)) as [E|_]; [contradiction|]. cbn [orb].
    destruct (existsb (N.eqb c) (map fst (cands lk))); reflexivity. }
  assert (HpX : forall c' r, lpend X c' r <-> pend l p c' r \/ (c' = c /\ r = nr)).
  { intros c' r. unfold X. rewrite lpend_some, (pend_at l p lk c' r El). apply queue_cand_waits. }
  split; [|split].
  - apply (LT_update l nr p X HLT (nr + 1) c); [lia| | |].
    + rewrite HX. unfold enq. destruct (existsb (N.eqb c) (line l p)) eqn:Ex; [apply Hline|].
      apply NoDup_snoc; [apply Hline|]. intros Hin. apply existsb_cid_In in Hin. congruence.
    + intros lk' c' rs [= <-]. apply queue_cand_nodup; [exact (fun c' rs => Hrs p lk c' rs El)|]. intros Hw.
      assert (nr < nr); [|lia]. apply (Hfresh p c nr). now apply (pend_at l p lk).
    + intros c' r Hp. apply HpX in Hp as [Hp|(-> & ->)]; [now left|right]. repeat split. lia.
  - exact (line_aupd l nr p X HLT _ HX).
  - intros q c' r. change l' with (put p X l). rewrite (pend_upd l nr p X HLT).
    destruct (path_eqb_spec p q) as [<-|Hne].
    + rewrite HpX. intuition auto.
    + split; [now left|]. intros [H|(-> & _)]; [exact H|now destruct Hne].
Qed.

Lemma fresh_hist l nr c p f :
  LT l nr -> lookup l p = None -> f [] = [c] ->
  let l' := set_at p (Lock c []) l in
  LT l' nr /\ (forall q, line l' q = aupd (line l) p f q) /\ (forall q c' r, pend l' q c' r <-> pend l q c' r).
Proof.
  intros HLT El Hf l'.
  assert (HX : forall c' r, ~ lpend (Some (Lock c [])) c' r).
  { intros c' r Hp. apply lpend_some in Hp as (rs & [] & _). }
  split; [|split].
  - apply (LT_update l nr p (Some (Lock c [])) HLT nr c); [lia| | |].
    + repeat constructor. intros [].
    + intros lk c' rs [= <-] [].
    + intros c' r Hp. destruct (HX _ _ Hp).
  - apply (line_aupd l nr p (Some (Lock c [])) HLT). now rewrite (line_free l p El), Hf.
  - intros q c' r. change l' with (put p (Some (Lock c [])) l). rewrite (pend_upd l nr p _ HLT). destruct (path_eqb_spec p q) as [<-|]; [|reflexivity].
    split; [intros Hp; destruct (HX _ _ Hp)|]. intros (lk & rs & E & _). congruence.
Qed.

Lemma acquire_hist l nr c p :
  LT l nr ->
  let '(l', g) := acquire_at l c p nr in
  LT l' (nr + 1) /\ (forall q, line l' q = aupd (line l) p (enq c) q) /\
  (forall q c' r, pend l' q c' r <-> (pend l q c' r \/ (q = p /\ c' = c /\ r = nr)) /\ ~ In r g) /\
  (g = [] \/ g = [nr] /\ hd_error (line l' p) = Some c).
Proof.
  intros HLT. pose proof (LT_mono l nr (nr + 1) HLT) as HLT1.
  assert (Hnow : forall l', (forall q c' r, pend l' q c' r <-> pend l q c' r) ->
            forall q c' r, pend l' q c' r <-> (pend l q c' r \/ (q = p /\ c' = c /\ r = nr)) /\ ~ In r [nr]).
  { intros l' H q c' r. rewrite H. split.
    - intros Hp. split; [now left|]. intros [<-|[]]. pose proof (lt_fresh _ _ HLT _ _ _ Hp). lia.
    - intros ([Hp|(_ & _ & ->)] & Hn); [exact Hp|]. destruct Hn. now left. }
  unfold acquire_at. destruct (lookup l p) as [lk|] eqn:El; [destruct (N.eqb_spec c (holder lk)) as [Hc|Hc]|].
  - pose proof (line_at l p lk El) as Elp. rewrite <- Hc in Elp.
    split; [apply HLT1; lia|]. split; [|split; [now apply Hnow|right; now rewrite Elp]].
    intros q. unfold aupd. destruct (path_eqb_spec p q) as [<-|]; [|reflexivity].
    rewrite Elp. unfold enq. cbn [existsb]. now rewrite N.eqb_refl.
  - destruct (queue_hist l nr c p lk HLT El Hc) as (HLT' & Hl' & Hp').
    split; [exact HLT'|]. split; [exact Hl'|]. split; [|now left].
    intros q c' r. rewrite Hp'. cbn [In]. tauto.
  - destruct (fresh_hist l nr c p (enq c) HLT El eq_refl) as (HLT' & Hl' & Hp').
    split; [apply (LT_mono _ _ _ HLT'); lia|]. split; [exact Hl'|]. split; [now apply Hnow|right].
    split; [reflexivity|]. unfold aupd in Hl'. now rewrite Hl', path_eqb_refl, (line_free l p El).
Qed.

Definition lockpart (s : core) := (locks s, locked_keys s, next_req s).
Definition quiet (s : core) (r : core * output) : Prop :=
  lockpart (fst r) = lockpart s /\ o_granted (snd r) = [] /\ o_cancelled (snd r) = [].

Lemma quiet_same s r : quiet s (s, out_res r).
Proof. now split. Qed.

Lemma quiet_comp s r1 r2 : quiet s r1 -> quiet (fst r1) r2 -> quiet s (fst r2, out_app (snd r1) (snd r2)).
Proof.
  intros (H1 & H2 & H3) (G1 & G2 & G3). split; [exact (eq_trans G1 H1)|].
  cbn [snd out_app o_granted o_cancelled]. now rewrite H2, G2, H3, G3.
Qed.

Lemma step_quiet s o : part_of o <> PLocks -> part_of o <> PSession -> quiet s (step s o).
Proof.
  intros HL HS. pose proof (step_frame s o) as Hf. pose proof (step_out s o) as Ho. cbv zeta in Ho.
  unfold quiet. destruct (part_of o); try congruence.
  - rewrite Hf. split; [reflexivity|apply Ho].
  - destruct Hf as (d & n & ->). split; [reflexivity|exact Ho].
  - destruct Hf as (t & m & ni & ->). split; [reflexivity|apply Ho].
  - destruct Hf as (l & m & ni & ->). split; [reflexivity|apply Ho].
  - destruct Hf as (m & ->). split; [reflexivity|apply Ho].
Qed.

Lemma run_quiet ops s :
  (forall o, In o ops -> part_of o <> PLocks /\ part_of o <> PSession) -> quiet s (run_ops ops s).
Proof.
  intros H. apply (run_ops_lift quiet (fun s => quiet_same s RUnit) quiet_comp).
  intros s0 o Ho. now apply step_quiet; apply H.
Qed.

Lemma with_res_quiet s s1 r res :
  lockpart s1 = lockpart s -> quiet s1 r ->
  quiet s (fst r, if is_crash (snd r) then snd r else out_with res (snd r)).
Proof. intros E (H1 & H2 & H3). rewrite E in H1. destruct (is_crash (snd r)); now split. Qed.

(* a session start: three internal sets *)
Lemma connected_quiet s c : quiet s (do_connected s c).
Proof.
  apply (connected_lifts quiet quiet_same quiet_comp).
  - intros c0 s0 o Hk. apply step_quiet; destruct o; try contradiction; discriminate.
  - intros r. now apply with_res_quiet.
Qed.

Definition cline (s : core) : list str -> list cid := line (locks s).
Definition cpend (s : core) : list str -> cid -> N -> Prop := pend (locks s).

Lemma cline_set_locks s l lk nr : cline (set_locks s l lk nr) = line l.
Proof. reflexivity. Qed.

(* [lh_keys]: every client in a line has that key on record in locked_keys; this is why unlock_all, which releases
   the keys on record, takes a client out of all its lines *)
Record LH (s : core) : Prop := {
  lh_lt : LT (locks s) (next_req s);
  lh_keys : forall p c, In c (cline s p) ->
            exists ps, assoc_get N.eqb c (locked_keys s) = Some ps /\ In p ps }.

Lemma LH_init : LH init.
Proof.
  split.
  - change (locks init) with (@empty_node lock). change (next_req init) with 0.
    split; try exact wfn_empty; try exact I.
    + intros p. unfold line. rewrite lookup_empty. constructor.
    + intros p lk c rs H. now rewrite lookup_empty in H.
    + intros p c r (lk & rs & H & _). now rewrite lookup_empty in H.
    + intros p c r p' c' (lk & rs & H & _). now rewrite lookup_empty in H.
  - intros p c H. unfold cline, line in H. change (locks init) with (@empty_node lock) in H.
    rewrite lookup_empty in H. destruct H.
Qed.

Definition new_req (s : core) (o : op) (q : list str) (c : cid) (r : N) : Prop :=
  exists k, o = OAcquire c k /\ parse_segments k = Ok q /\ r = next_req s.
Definition actor (o : op) : option cid :=
  match o with ORelease c _ | ODisconnected c => Some c | _ => None end.

(* the account of a step: what becomes of the ids pending before it and of the id it hands out ([new_req]).
   [ac_next]: the counter moves, by one, exactly when an id is handed out, and that id is the old counter *)
Record acct (s s' : core) (o : op) (out : output) : Prop := {
  ac_pend : forall q c r, cpend s' q c r <->
            (cpend s q c r \/ new_req s o q c r) /\ ~ In r (o_granted out ++ o_cancelled out);
  ac_grant : forall r, In r (o_granted out) ->
             exists q c, (cpend s q c r \/ new_req s o q c r) /\ hd_error (cline s' q) = Some c;
  ac_cancel : forall r, In r (o_cancelled out) ->
              exists q c, actor o = Some c /\ cpend s q c r /\ ~ In c (cline s' q);
  ac_nodup : NoDup (o_granted out ++ o_cancelled out);
  ac_next : (next_req s' = next_req s /\ forall q c r, ~ new_req s o q c r) \/
            (next_req s' = next_req s + 1 /\ exists q c, new_req s o q c (next_req s)) }.

Definition LStep (s : core) (o : op) : Prop :=
  let s' := fst (step s o) in let out := snd (step s o) in
  LH s' /\ (forall q, cline s' q = astep (cline s) o q) /\ (is_crash out = false -> acct s s' o out).

Lemma no_new_req s o : (forall c k, o <> OAcquire c k) -> forall q c r, ~ new_req s o q c r.
Proof. intros H q c r (k & E & _). exact (H c k E). Qed.

Lemma new_req_acq s c k p q c' r :
  parse_segments k = Ok p -> (new_req s (OAcquire c k) q c' r <-> q = p /\ c' = c /\ r = next_req s).
Proof.
  intros Ep. split.
  - intros (k' & [= <- <-] & Ep' & ->). rewrite Ep in Ep'. injection Ep' as <-. auto.
  - intros (-> & -> & ->). now exists k.
Qed.

Lemma acct_none s s' o out :
  o_granted out = [] -> o_cancelled out = [] -> (forall q c r, ~ new_req s o q c r) ->
  (forall q c r, cpend s' q c r <-> cpend s q c r) -> next_req s' = next_req s ->
  acct s s' o out.
Proof.
  intros Hg Hx Hnn Hp Hn. split; rewrite ?Hg, ?Hx; [|intros r []|intros r []|constructor|left; now split].
  intros q c r. rewrite Hp. specialize (Hnn q c r). cbn [app In]. tauto.
Qed.

Lemma acct_released s s' o c P out :
  actor o = Some c -> (forall q c' r, ~ new_req s o q c' r) -> next_req s' = next_req s ->
  released c P (locks s) (locks s') (o_granted out) (o_cancelled out) -> acct s s' o out.
Proof.
  intros Ha Hnn Hn [Hl Hp Hg Hx Hnd]. split.
  - intros q c' r. unfold cpend. rewrite Hp. specialize (Hnn q c' r). tauto.
  - intros r Hr. destruct (Hg r Hr) as (q & c' & H & _ & Hhd). exists q, c'. split; [now left|exact Hhd].
  - intros r Hr. destruct (Hx r Hr) as (q & HP & H). exists q, c. split; [exact Ha|]. split; [exact H|].
    unfold cline. rewrite Hl, HP. intros Hin. apply In_notc in Hin. now destruct Hin.
  - exact Hnd.
  - left. split; [exact Hn|exact Hnn].
Qed.

Lemma quiet_LStep s o :
  LH s -> quiet s (step s o) -> (forall q, astep (cline s) o q = cline s q) ->
  (forall q c r, ~ new_req s o q c r) -> LStep s o.
Proof.
  intros [HLT Hk] (Hq & Hg & Hx) Ha Hn. unfold LStep.
  set (s' := fst (step s o)) in *. set (out := snd (step s o)) in *.
  unfold lockpart in Hq. injection Hq as E1 E2 E3.
  assert (Hcl : forall q, cline s' q = cline s q) by (intros q; unfold cline; now rewrite E1).
  split; [|split].
  - split; [now rewrite E1, E3|]. intros p c Hin. rewrite Hcl in Hin. rewrite E2. now apply Hk.
  - intros q. now rewrite Ha, Hcl.
  - intros _. apply acct_none; [exact Hg|exact Hx|exact Hn| |exact E3].
    intros q c r. unfold cpend. now rewrite E1.
Qed.

Lemma assoc_get_set {V} c c' (v : V) l :
  assoc_get N.eqb c' (assoc_set N.eqb c v l) = if N.eqb c' c then Some v else assoc_get N.eqb c' l.
Proof.
  induction l as [|[k x] l IH]; cbn; [reflexivity|].
  destruct (N.eqb_spec c k) as [->|Hk]; cbn; [now destruct (N.eqb c' k)|].
  rewrite IH. destruct (N.eqb_spec c' k) as [->|]; [|reflexivity]. destruct (N.eqb_spec k c); [congruence|reflexivity].
Qed.

Lemma assoc_get_snoc {V} c' (l : list (cid * V)) c v :
  assoc_get N.eqb c' (l ++ [(c, v)]) =
  match assoc_get N.eqb c' l with Some x => Some x | None => if N.eqb c' c then Some v else None end.
Proof. induction l as [|[k x] l IH]; cbn; [reflexivity|]. destruct (N.eqb c' k); [reflexivity|exact IH]. Qed.

Lemma assoc_get_del {V} c c' (l : list (cid * V)) :
  assoc_get N.eqb c' (assoc_del N.eqb c l) = if N.eqb c' c then None else assoc_get N.eqb c' l.
Proof.
  unfold assoc_del. induction l as [|[k x] l IH]; cbn; [now destruct (N.eqb c' c)|].
  destruct (N.eqb_spec c k) as [->|Hk]; cbn; rewrite IH; [now destruct (N.eqb c' k)|].
  destruct (N.eqb_spec c' k) as [->|]; [|reflexivity]. destruct (N.eqb_spec k c); [congruence|reflexivity].
Qed.

Lemma push_locked_get c p ks c' :
  assoc_get N.eqb c' (push_locked c p ks) =
  if N.eqb c' c then Some (match assoc_get N.eqb c ks with Some ps => ps | None => [] end ++ [p])
  else assoc_get N.eqb c' ks.
Proof.
  unfold push_locked. destruct (assoc_get N.eqb c ks) as [ps|] eqn:E; [apply assoc_get_set|].
  rewrite assoc_get_snoc. destruct (N.eqb_spec c' c) as [->|]; [now rewrite E|now destruct (assoc_get N.eqb c' ks)].
Qed.

Lemma LH_push s c p f l' nr' :
  LH s -> LT l' nr' -> (forall q, line l' q = aupd (cline s) p f q) -> (forall L x, In x (f L) -> In x L \/ x = c) ->
  LH (set_locks s l' (push_locked c p (locked_keys s)) nr').
Proof.
  intros [_ Hk] HLT' Hl' Hf. split; [exact HLT'|]. intros q c' Hin. rewrite cline_set_locks, Hl' in Hin.
  cbn [locked_keys set_locks]. rewrite push_locked_get.
  assert (Hc : In c' (cline s q) \/ (q = p /\ c' = c)).
  { unfold aupd in Hin. destruct (path_eqb_spec p q) as [<-|]; [|now left]. destruct (Hf _ _ Hin); [now left|now right]. }
  destruct Hc as [H|(-> & ->)].
  - destruct (Hk q c' H) as (ps & Hg & Hi). destruct (N.eqb_spec c' c) as [->|]; [|now exists ps].
    rewrite Hg. eexists. split; [reflexivity|]. apply in_app_iff. now left.
  - rewrite N.eqb_refl. eexists. split; [reflexivity|]. apply in_app_iff. right. now left.
Qed.

Lemma lock_LStep s c k : LH s -> LStep s (OLock c k).
Proof.
  intros HLH. pose proof HLH as [HLT Hk].
  assert (Hnn : forall q c' r, ~ new_req s (OLock c k) q c' r) by (apply no_new_req; discriminate).
  destruct (parse_segments k) as [p|code] eqn:Ep.
  2:{ apply quiet_LStep; [exact HLH| | |exact Hnn].
      - cbn [step]. unfold do_lock. rewrite Ep. apply quiet_same.
      - intros q. cbn [astep]. now rewrite Ep. }
  destruct (lookup (locks s) p) as [lk|] eqn:El.
  - apply quiet_LStep; [exact HLH| | |exact Hnn].
    + cbn [step]. rewrite (do_lock_eq s c k p Ep), El. apply quiet_same.
    + intros q. cbn [astep]. rewrite Ep. unfold aupd. destruct (path_eqb_spec p q) as [<-|]; [|reflexivity].
      unfold cline. now rewrite (line_at _ _ _ El).
  - unfold LStep. cbn [step astep]. rewrite (do_lock_eq s c k p Ep), El, Ep. cbn [fst snd].
    destruct (fresh_hist (locks s) (next_req s) c p (fun L => match L with [] => [c] | _ => L end) HLT El eq_refl)
      as (HLT' & Hl' & Hp').
    split; [|split].
    + apply (LH_push s c p _ _ _ HLH HLT' Hl'). intros [|y L] x H; [destruct H as [<-|[]]; now right|now left].
    + exact Hl'.
    + intros _. apply acct_none; [reflexivity|reflexivity|exact Hnn|exact Hp'|reflexivity].
Qed.

Lemma acquire_LStep s c k : LH s -> LStep s (OAcquire c k).
Proof.
  intros HLH. pose proof HLH as [HLT Hk].
  destruct (parse_segments k) as [p|code] eqn:Ep.
  2:{ apply quiet_LStep; [exact HLH| | |].
      - cbn [step]. unfold do_acquire. rewrite Ep. apply quiet_same.
      - intros q. cbn [astep]. now rewrite Ep.
      - intros q c' r (k' & [= <- <-] & Ep' & _). congruence. }
  assert (Hnew : new_req s (OAcquire c k) p c (next_req s)) by now apply (new_req_acq s c k p).
  unfold LStep. cbn [step astep]. rewrite (do_acquire_eq s c k p Ep), Ep. cbv zeta.
  pose proof (acquire_hist (locks s) (next_req s) c p HLT) as H.
  destruct (acquire_at (locks s) c p (next_req s)) as [l' g]. destruct H as (HLT' & Hl' & Hp' & Hg). cbn [fst snd].
  split; [|split].
  - apply (LH_push s c p _ _ _ HLH HLT' Hl'). intros L x. unfold enq.
    destruct (existsb (N.eqb c) L); [now left|]. intros H. apply in_app_iff in H as [H|[<-|[]]]; [now left|now right].
  - exact Hl'.
  - intros _. split; cbn [o_granted o_cancelled]; rewrite ?app_nil_r.
    + intros q c' r. rewrite (new_req_acq s c k p q c' r Ep). apply Hp'.
    + intros r Hr. destruct Hg as [->|(-> & Hhd)]; [destruct Hr|]. destruct Hr as [<-|[]]. exists p, c. split; [now right|exact Hhd].
    + intros r [].
    + destruct Hg as [->|(-> & _)]; repeat constructor. intros [].
    + right. split; [reflexivity|]. now exists p, c.
Qed.

Lemma release_LStep s c k : LH s -> LStep s (ORelease c k).
Proof.
  intros HLH. pose proof HLH as [HLT Hk].
  assert (Hnn : forall q c' r, ~ new_req s (ORelease c k) q c' r) by (apply no_new_req; discriminate).
  destruct (parse_segments k) as [p|code] eqn:Ep.
  2:{ apply quiet_LStep; [exact HLH| | |exact Hnn].
      - cbn [step]. unfold do_release. rewrite Ep. apply quiet_same.
      - intros q. cbn [astep]. now rewrite Ep. }
  unfold LStep. cbn [step astep]. unfold do_release. rewrite Ep.
  pose proof (unlock_hist (locks s) (next_req s) c p HLT) as H.
  destruct (unlock (locks s) c p) as [[[[l' r0] g] x] cr].
  destruct H as (-> & HLT' & HR). cbn [fst snd].
  split; [|split].
  - split; [exact HLT'|]. intros q c' Hin. rewrite cline_set_locks, (rl_line _ _ _ _ _ _ HR) in Hin. apply Hk.
    destruct (path_eqb p q); [now apply In_notc in Hin|exact Hin].
  - exact (rl_line _ _ _ _ _ _ HR).
  - intros _. now apply (acct_released s _ _ c (path_eqb p)).
Qed.

Lemma unlock_all_hist s c :
  LH s ->
  let '(l', g, x, crash) := unlock_all s c in
  crash = false /\ LT l' (next_req s) /\ released c (fun _ => true) (locks s) l' g x.
Proof.
  intros [HLT Hk]. unfold unlock_all. destruct (assoc_get N.eqb c (locked_keys s)) as [ps|] eqn:Eg.
  - pose proof (unlock_paths_hist c ps (locks s) (next_req s) HLT) as HU.
    destruct (unlock_paths (locks s) c ps) as [[[l' g] x] cr]. destruct HU as (-> & HLT' & HR).
    split; [reflexivity|]. split; [exact HLT'|]. apply (released_cover _ _ _ _ _ _ HR).
    intros q Hin. destruct (Hk q c Hin) as (ps' & Hg & Hi). rewrite Eg in Hg. injection Hg as <-.
    apply existsb_exists. exists q. split; [exact Hi|apply path_eqb_refl].
  - split; [reflexivity|]. split; [exact HLT|]. apply released_none. intros q _ Hin.
    destruct (Hk q c Hin) as (ps & Hg & _). congruence.
Qed.

Lemma end_ops_part s c o : In o (end_ops s c) -> part_of o <> PLocks /\ part_of o <> PSession.
Proof. intros Ho. apply end_ops_kind in Ho. destruct o; try contradiction; split; discriminate. Qed.

Lemma disconnected_LStep s c : LH s -> LStep s (ODisconnected c).
Proof.
  intros HLH. pose proof HLH as [HLT Hk].
  assert (Hnn : forall q c' r, ~ new_req s (ODisconnected c) q c' r) by (apply no_new_req; discriminate).
  destruct (N.eqb c 0) eqn:E0.
  { apply quiet_LStep; [exact HLH| | |exact Hnn].
    - cbn [step]. rewrite disconnected_crash by now left. apply quiet_same.
    - intros q. cbn [astep]. now rewrite E0. }
  pose proof (unlock_all_hist s c HLH) as HU.
  destruct (unlock_all s c) as [[[l' g] x] cr] eqn:Eu. destruct HU as (-> & HLT' & HR).
  pose proof (rl_line _ _ _ _ _ _ HR) as Hl'. cbv beta iota in Hl'.
  (* the requests of the session end leave the table as unlock_all made it *)
  pose proof (run_quiet (end_ops s c) (prep s c) (end_ops_part s c)) as Hq.
  assert (Ep : lockpart (prep s c) = (l', assoc_del N.eqb c (locked_keys s), next_req s))
    by now rewrite (prep_eq s c _ _ _ _ Eu).
  unfold LStep. cbn [step]. rewrite (disconnected_run s c l' g x E0 Eu).
  destruct (run_ops (end_ops s c) (prep s c)) as [s1 o1]. destruct Hq as (Hq & Hg0 & Hx0). cbn [fst snd] in *.
  rewrite Ep in Hq. injection Hq as E1 E2 E3.
  split; [|split].
  - split; [now rewrite E1, E3|]. intros q c' Hin. unfold cline in Hin. rewrite E1, Hl' in Hin.
    apply In_notc in Hin as (Hin & Hne). destruct (Hk q c' Hin) as (ps & Hg & Hi).
    exists ps. split; [|exact Hi]. rewrite E2, assoc_get_del. now destruct (N.eqb_spec c' c).
  - intros q. unfold cline at 1. rewrite E1, Hl'. cbn [astep]. now rewrite E0.
  - unfold end_out. intros Hnc. destruct (is_crash o1) eqn:Ecr; [congruence|].
    apply (acct_released s _ _ c (fun _ => true)); [reflexivity|exact Hnn|exact E3|].
    cbn [o_granted o_cancelled]. now rewrite Hg0, Hx0, !app_nil_r, E1.
Qed.

Lemma other_LStep s o : LH s -> part_of o <> PLocks -> part_of o <> PSession -> LStep s o.
Proof.
  intros HLH HL HS. apply quiet_LStep; [exact HLH|now apply step_quiet| |].
  - intros q. destruct o; try reflexivity; now destruct HL.
  - apply no_new_req. intros c k ->. now apply HL.
Qed.

Theorem lock_step s o : LH s -> LStep s o.
Proof.
  intros HLH. destruct o; try (apply other_LStep; [exact HLH|discriminate|discriminate]).
  - now apply lock_LStep.
  - now apply acquire_LStep.
  - now apply release_LStep.
  - apply quiet_LStep; [exact HLH|apply connected_quiet|reflexivity|apply no_new_req; discriminate].
  - now apply disconnected_LStep.
Qed.

Fixpoint trace (s : core) (ops : list op) : list output :=
  match ops with
  | [] => []
  | o :: ops' => snd (step s o) :: trace (fst (step s o)) ops'
  end.
Definition resolved (outs : list output) : list N := flat_map (fun o => o_granted o ++ o_cancelled o) outs.
Definition nocrash (outs : list output) : Prop := forall o, In o outs -> is_crash o = false.

Lemma final_snoc s ops o : final s (ops ++ [o]) = fst (step (final s ops) o).
Proof. apply final_app. Qed.

Lemma trace_app a : forall s b, trace s (a ++ b) = trace s a ++ trace (final s a) b.
Proof. induction a as [|o a IH]; intros s b; [reflexivity|]. cbn [app trace]. now rewrite IH. Qed.

Lemma run_trace ops : forall s, nocrash (trace s ops) -> run s ops = trace s ops.
Proof.
  induction ops as [|o ops IH]; intros s H; [reflexivity|]. cbn [run trace] in *.
  rewrite (H (snd (step s o))) by now left. f_equal. apply IH. intros x Hx. apply H. now right.
Qed.

Theorem reach_LH ops : LH (final init ops).
Proof.
  induction ops as [|o ops IH] using rev_ind; [exact LH_init|].
  rewrite final_snoc. exact (proj1 (lock_step _ o IH)).
Qed.

Lemma astep_ext (a b : aline) o : (forall q, a q = b q) -> forall q, astep a o q = astep b o q.
Proof.
  intros Hab q. destruct o; cbn [astep]; try apply Hab.
  1-3: destruct (parse_segments k); [|apply Hab]; unfold aupd; now rewrite Hab.
  destruct (N.eqb c 0); [apply Hab|now rewrite Hab].
Qed.

Theorem line_refines ops q : cline (final init ops) q = fold_left astep ops (fun _ => []) q.
Proof.
  revert q. induction ops as [|o ops IH] using rev_ind; intros q.
  - unfold cline, line. change (locks (final init [])) with (@empty_node lock). now rewrite lookup_empty.
  - rewrite final_snoc, fold_left_app. cbn [fold_left].
    rewrite (proj1 (proj2 (lock_step _ o (reach_LH ops))) q). now apply astep_ext.
Qed.

(* C07: a session end takes its client out of the line of every key *)
Theorem session_end_lines ops c q :
  N.eqb c 0 = false ->
  cline (fst (step (final init ops) (ODisconnected c))) q = notc c (cline (final init ops) q).
Proof.
  intros H0. rewrite (proj1 (proj2 (lock_step _ (ODisconnected c) (reach_LH ops))) q).
  cbn [astep]. now rewrite H0.
Qed.

Lemma pend_waits s q c r : LH s -> cpend s q c r -> In c (cline s q) /\ hd_error (cline s q) <> Some c.
Proof. intros [HLT _]. exact (lpend_waits (lookup (locks s) q) c r (lt_line _ _ HLT q)). Qed.

Definition accounted (s : core) (R : list N) : Prop :=
  NoDup R /\
  (forall r, In r R -> r < next_req s /\ forall q c, ~ cpend s q c r) /\
  (forall r, r < next_req s -> In r R \/ exists q c, cpend s q c r).

Section OneStep.
  Variables (ops : list op) (o : op).
  Let s := final init ops.
  Let s' := fst (step s o).
  Let out := snd (step s o).
  Hypothesis Hnc : is_crash out = false.

  Let HLH : LH s := reach_LH ops.
  Let HLH' : LH s' := proj1 (lock_step s o HLH).
  Let Hac : acct s s' o out := proj2 (proj2 (lock_step s o HLH)) Hnc.

  Theorem granted_is_holder r :
    In r (o_granted out) ->
    exists q c, (cpend s q c r \/ new_req s o q c r) /\ hd_error (cline s' q) = Some c.
  Proof. exact (ac_grant _ _ _ _ Hac r). Qed.

  Theorem cancelled_has_left r :
    In r (o_cancelled out) -> exists q c, actor o = Some c /\ cpend s q c r /\ ~ In c (cline s' q).
  Proof. exact (ac_cancel _ _ _ _ Hac r). Qed.

  Theorem pending_stays q c r :
    cpend s q c r -> ~ In r (o_granted out ++ o_cancelled out) -> cpend s' q c r.
  Proof. intros Hp Hn. apply (ac_pend _ _ _ _ Hac). split; [now left|exact Hn]. Qed.

  Lemma fate q c r :
    cpend s q c r ->
    (In r (o_granted out) /\ hd_error (cline s' q) = Some c) \/
    (In r (o_cancelled out) /\ ~ In c (cline s' q)) \/
    (cpend s' q c r /\ In c (cline s' q) /\ hd_error (cline s' q) <> Some c).
  Proof.
    intros Hp. pose proof (lt_uniq _ _ (lh_lt _ HLH) q c r) as Huniq.
    destruct (in_dec N.eq_dec r (o_granted out ++ o_cancelled out)) as [Hr|Hn].
    2:{ right. right. split; [now apply pending_stays|]. now apply (pend_waits s' q c r), pending_stays. }
    apply in_app_iff in Hr as [Hr|Hr].
    - left. split; [exact Hr|]. destruct (granted_is_holder r Hr) as (q2 & c2 & [Hp2|Hp2] & Hhd).
      + now destruct (Huniq _ _ Hp Hp2) as (-> & ->).
      + destruct Hp2 as (k & _ & _ & ->). pose proof (lt_fresh _ _ (lh_lt _ HLH) _ _ _ Hp). lia.
    - right. left. split; [exact Hr|]. destruct (cancelled_has_left r Hr) as (q2 & c2 & _ & Hp2 & Hout).
      now destruct (Huniq _ _ Hp Hp2) as (-> & ->).
  Qed.

  Theorem holder_is_granted q c r :
    cpend s q c r -> hd_error (cline s' q) = Some c -> In r (o_granted out).
  Proof.
    intros Hp Hhd. destruct (fate q c r Hp) as [(H & _)|[(_ & H)|(_ & _ & H)]]; [exact H| |contradiction].
    destruct H. now apply hd_error_In.
  Qed.

  Theorem left_is_cancelled q c r :
    cpend s q c r -> ~ In c (cline s' q) -> In r (o_cancelled out).
  Proof.
    intros Hp Hout. destruct (fate q c r Hp) as [(_ & H)|[(H & _)|(_ & H & _)]]; [|exact H|contradiction].
    destruct Hout. now apply hd_error_In.
  Qed.

  Let Open (t : core) (r : N) : Prop := exists q c, cpend t q c r.
  Let New (r : N) : Prop := exists q c, new_req s o q c r.
  Let Res : list N := o_granted out ++ o_cancelled out.

  Lemma issued_step r : r < next_req s' <-> r < next_req s \/ New r.
  Proof.
    destruct (ac_next _ _ _ _ Hac) as [(-> & Hn)|(-> & q & c & Hn)].
    - split; [now left|]. intros [H|(q & c & H)]; [exact H|destruct (Hn _ _ _ H)].
    - split; [|intros [H|(q2 & c2 & k & _ & _ & ->)]; lia].
      intros H. destruct (N.eq_dec r (next_req s)) as [->|]; [right; now exists q, c|left; lia].
  Qed.

  Lemma resolved_open r : In r Res -> Open s r \/ New r.
  Proof.
    intros Hr. apply in_app_iff in Hr as [Hr|Hr].
    - destruct (granted_is_holder r Hr) as (q & c & [H|H] & _); [left|right]; now exists q, c.
    - destruct (cancelled_has_left r Hr) as (q & c & _ & H & _). left. now exists q, c.
  Qed.

  Lemma open_step r : Open s' r <-> (Open s r \/ New r) /\ ~ In r Res.
  Proof.
    split.
    - intros (q & c & H). apply (ac_pend _ _ _ _ Hac) in H as ([H|H] & Hn); (split; [|exact Hn]); [left|right]; now exists q, c.
    - intros ([(q & c & H)|(q & c & H)] & Hn); exists q, c; apply (ac_pend _ _ _ _ Hac); (split; [|exact Hn]); [now left|now right].
  Qed.

  Lemma accounted_step R : accounted s R -> accounted s' (R ++ Res).
  Proof.
    intros (Hnd & Hin & Hall).
    assert (HO : forall r, Open s r -> r < next_req s).
    { intros r (q & c & H). exact (lt_fresh _ _ (lh_lt _ HLH) _ _ _ H). }
    assert (HN : forall r, New r -> ~ r < next_req s) by (intros r (q & c & k & _ & _ & ->); lia).
    assert (Hnot : forall t r, (forall q c, ~ cpend t q c r) <-> ~ Open t r).
    { intros t r. split; [intros H (q & c & Hp); exact (H q c Hp)|intros H q c Hp; apply H; now exists q, c]. }
    split; [|split].
    - apply NoDup_app_intro; [exact Hnd|exact (ac_nodup _ _ _ _ Hac)|]. intros r HrR Hr.
      destruct (Hin r HrR) as (Hlt & Hnp). apply Hnot in Hnp. specialize (HN r).
      destruct (resolved_open r Hr); tauto.
    - intros r Hr. rewrite Hnot, issued_step, open_step. apply in_app_iff in Hr.
      pose proof (Hin r) as H. rewrite Hnot in H. pose proof (resolved_open r). specialize (HO r). specialize (HN r). tauto.
    - intros r. rewrite issued_step, in_app_iff. fold (Open s' r). rewrite open_step.
      specialize (Hall r). fold (Open s r) in Hall. destruct (in_dec N.eq_dec r Res); tauto.
  Qed.
End OneStep.

(* C06: every id handed out by an acquire is confirmed or cancelled at most once, never both, and until then it is
   pending *)
Theorem confirm_once ops :
  nocrash (trace init ops) -> accounted (final init ops) (resolved (trace init ops)).
Proof.
  induction ops as [|o ops IH] using rev_ind; intros Hnc.
  - cbn. split; [constructor|]. split; [intros r []|]. intros r Hr. change (next_req init) with 0 in Hr. lia.
  - rewrite trace_app in *. rewrite final_snoc. unfold resolved. rewrite flat_map_app. cbn [trace flat_map].
    rewrite app_nil_r. apply accounted_step.
    + apply Hnc, in_app_iff. right. now left.
    + apply IH. intros x Hx. apply Hnc, in_app_iff. now left.
Qed.

Lemma release_no_crash s c k : LH s -> o_res (snd (do_release s c k)) <> RCrash.
Proof.
  intros [HLT _]. unfold do_release. destruct (parse_segments k) as [p|code]; [|discriminate].
  pose proof (unlock_hist _ _ c p HLT) as H. destruct (unlock (locks s) c p) as [[[[l' r0] g] x] cr].
  destruct H as (-> & _). cbn. destruct r0; discriminate.
Qed.

Theorem release_never_crashes ops c k :
  o_res (snd (do_release (final init ops) c k)) <> RCrash.
Proof. exact (release_no_crash _ c k (reach_LH ops)). Qed.

Theorem reach_nodup ops q : NoDup (cline (final init ops) q).
Proof. exact (lt_line _ _ (lh_lt _ (reach_LH ops)) q). Qed.

Lemma NoDup_app_l {A} (a b : list A) : NoDup (a ++ b) -> NoDup a.
Proof. intros H. exact (proj1 (NoDup_app_inv a b H)). Qed.

Lemma has_client_In c (l : list (cid * list N)) : has_client c l = true <-> In c (map fst l).
Proof. rewrite has_client_existsb. apply existsb_cid_In. Qed.

Lemma assoc_get_det {V} c (l : list (cid * V)) a b :
  assoc_get N.eqb c l = Some a -> assoc_get N.eqb c l = Some b -> a = b.
Proof. congruence. Qed.
