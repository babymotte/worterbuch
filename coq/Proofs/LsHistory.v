(* C05, ls-subscriptions over whole histories without import: after every request the last list an ls-subscriber
   was sent is the list ls returns for its parent (an empty list standing for "no such value").  The notes that
   insert, delete and pattern delete record -- in the order of the Rust code, the intermediate lists of
   a pattern delete included -- are followed through the tree operations. *)
From WB Require Import Base.Str Base.StrFacts Base.ListFacts Model.Key Model.Store Model.Entry Model.Core
  Proofs.Frame Proofs.StoreFacts Proofs.TreeInv Proofs.GoodNames Proofs.CoreFacts Proofs.SessionEnd Proofs.StreamAll.
From Coq Require Import Lia.

Local Arguments N.add : simpl never.

Definition LS {V} (n : node V) (P : list str) : list str := names_or_empty (ls_at n P).

Lemma LS_nil {V} (v : option V) cs : LS (Node v cs) [] = names cs.
Proof. reflexivity. Qed.

Lemma LS_cons {V} (v : option V) cs k P :
  LS (Node v cs) (k :: P) = match find_child k cs with Some c => LS c P | None => [] end.
Proof. unfold LS, ls_at. cbn [get_node nkids]. now destruct (find_child k cs). Qed.

Lemma LS_obsolete {V} (c : node V) P : is_obsolete c = true -> LS c P = [].
Proof. destruct c as [[x|] [|kc cs]]; try discriminate. intros _. now destruct P. Qed.

(* trimming removes only children below which nothing is listed *)
Lemma LS_trim {V} (v : option V) cs k P :
  NoDup (names cs) -> LS (Node v (trim_kids cs)) (k :: P) = LS (Node v cs) (k :: P).
Proof.
  intros Hnd. rewrite !LS_cons. unfold trim_kids. rewrite find_filter by exact Hnd.
  destruct (find_child k cs) as [c|]; [|reflexivity]. cbn [snd].
  destruct (is_obsolete c) eqn:E; [|reflexivity]. symmetry. now apply LS_obsolete.
Qed.

Fixpoint last_for (P : list str) (notes : list (list str * list str)) : option (list str) :=
  match notes with
  | [] => None
  | (Q, l) :: rest =>
      match last_for P rest with
      | Some x => Some x
      | None => if path_eqb Q P then Some l else None
      end
  end.

Lemma last_for_app P a b :
  last_for P (a ++ b) = match last_for P b with Some x => Some x | None => last_for P a end.
Proof.
  induction a as [|[Q l] a IH]; cbn [app last_for]; [now destruct (last_for P b)|].
  rewrite IH. now destruct (last_for P b).
Qed.

Lemma last_for_spec P notes :
  match last_for P notes with
  | Some l => In (P, l) notes
  | None => forall Q l, In (Q, l) notes -> Q <> P
  end.
Proof.
  induction notes as [|[Q l] notes IH]; cbn [last_for]; [intros Q l []|].
  destruct (last_for P notes) as [x|]; [now right|].
  destruct (path_eqb_spec Q P) as [->|Hne]; [now left|].
  intros Q' l' [[= <- <-]|Hin]; [exact Hne|now apply (IH Q' l')].
Qed.

Lemma last_for_none P notes : (forall Q l, In (Q, l) notes -> Q <> P) -> last_for P notes = None.
Proof.
  intros H. pose proof (last_for_spec P notes) as Hs. destruct (last_for P notes) as [l|]; [now elim (H P l)|reflexivity].
Qed.

(* the last note for a parent is its list after the operation; a parent without a note keeps its list *)
Definition notes_ok {V} (n n' : node V) (trav : list str) (notes : list (list str * list str)) : Prop :=
  (forall Q l, In (Q, l) notes -> exists P, Q = trav ++ P) /\
  forall P, match last_for (trav ++ P) notes with
            | Some l => l = LS n' P
            | None => LS n' P = LS n P
            end.

Lemma notes_ok_none {V} (n n' : node V) trav : (forall P, LS n' P = LS n P) -> notes_ok n n' trav [].
Proof. intros H. split; [intros Q l []|exact H]. Qed.

Lemma notes_ok_trans {V} (n n' n'' : node V) trav a b :
  notes_ok n n' trav a -> notes_ok n' n'' trav b -> notes_ok n n'' trav (a ++ b).
Proof.
  intros (A1 & A2) (B1 & B2). split.
  - intros Q l Hin. apply in_app_iff in Hin as [Hin|Hin]; [exact (A1 Q l Hin)|exact (B1 Q l Hin)].
  - intros P. rewrite last_for_app. specialize (A2 P). specialize (B2 P).
    destruct (last_for (trav ++ P) b); [exact B2|]. rewrite B2. exact A2.
Qed.

Definition live {V} (cs : list (str * node V)) : Prop := Forall (fun kc => is_obsolete (snd kc) = false) cs.

Lemma live_any {V} (cs : list (str * node V)) : any_obsolete cs = false -> live cs.
Proof.
  intros H. apply Forall_forall. intros kc Hin. apply Bool.not_true_is_false. intros E.
  unfold any_obsolete in H. rewrite (proj2 (existsb_exists _ _)) in H; [discriminate|]. now exists kc.
Qed.

Lemma live_trim {V} (cs : list (str * node V)) : live cs -> trim_kids cs = cs.
Proof. unfold live. rewrite Forall_forall. intros H. apply filter_all. intros kc Hin. now rewrite (H kc Hin). Qed.

Lemma live_trimmed {V} (cs : list (str * node V)) : live (trim_kids cs).
Proof. apply Forall_forall. intros kc Hin. apply filter_In in Hin as (_ & H). now apply negb_true_iff in H. Qed.

Lemma created_at_empty {V} pre p : created_at pre p (@None (node V)) = created_at pre p (Some (@empty_node V)).
Proof. now destruct p. Qed.

Lemma created_at_some {V} p : forall pre (n : node V) Q,
  In Q (created_at pre p (Some n)) <->
  exists a k b, p = a ++ k :: b /\ Q = pre ++ a /\ get_node n (a ++ [k]) = None.
Proof.
  induction p as [|k p IH]; intros pre [v cs] Q; cbn [created_at nkids].
  - split; [intros []|]. intros (a & k & b & E & _). now destruct a.
  - destruct (find_child k cs) as [c|] eqn:Ef; [|rewrite created_at_empty; cbn [In]]; rewrite IH; split.
    + intros (a & k' & b & -> & -> & H). exists (k :: a), k', b. rewrite <- app_assoc.
      repeat split. cbn [app get_node nkids]. now rewrite Ef.
    + intros ([|x a] & k' & b & E & -> & H); injection E as -> ->; cbn [app get_node nkids] in H; rewrite Ef in H.
      * discriminate.
      * exists a, k', b. now rewrite <- app_assoc.
    + intros [<-|(a & k' & b & -> & -> & _)].
      * exists [], k, p. rewrite app_nil_r. repeat split. cbn [app get_node nkids]. now rewrite Ef.
      * exists (k :: a), k', b. rewrite <- app_assoc. repeat split. cbn [app get_node nkids]. now rewrite Ef.
    + intros ([|x a] & k' & b & E & -> & _); injection E as -> ->; [left; now rewrite app_nil_r|].
      right. exists a, k', b. rewrite <- app_assoc. repeat split. now destruct a.
Qed.

Lemma LS_set_at {V} p (e : V) : forall (n : node V) P,
  (forall k b, p = P ++ k :: b -> get_node n (P ++ [k]) <> None) -> LS (set_at p e n) P = LS n P.
Proof.
  induction p as [|k p IH]; intros [v cs] P H.
  - cbn [set_at nkids]. destruct P; reflexivity.
  - cbn [set_at nval nkids]. destruct P as [|k2 P].
    + rewrite !LS_nil, names_upd_child. specialize (H k p eq_refl). cbn [app get_node nkids] in H.
      destruct (existsb (str_eqb k) (names cs)) eqn:Ex; [reflexivity|]. exfalso. apply H.
      rewrite (proj2 (find_child_None k cs)); [reflexivity|]. intros Hin. apply existsb_str_In in Hin. congruence.
    + rewrite !LS_cons. destruct (str_eqb_spec k2 k) as [->|Hne]; [|now rewrite find_upd_child_other].
      rewrite find_upd_child_same, IH.
      * destruct (find_child k cs); [reflexivity|now apply LS_obsolete].
      * intros k' b ->. specialize (H k' b eq_refl). cbn [app get_node nkids] in H.
        destruct (find_child k cs); [exact H|now elim H].
Qed.

Definition insert_notes {V} (p : list str) (d d' : node V) : list (list str * list str) :=
  flat_map (fun pre => match ls_at d' pre with Some l => [(pre, l)] | None => [] end)
           (created_at [] p (Some d)).

Lemma ls_at_set_prefix {V} (e : V) P k b : forall d, ls_at (set_at (P ++ k :: b) e d) P <> None.
Proof.
  unfold ls_at. induction P as [|x P IH]; intros [v cs]; cbn [app set_at get_node nkids nval].
  - discriminate.
  - rewrite find_upd_child_same. destruct (find_child x cs); apply IH.
Qed.

Theorem insert_notes_ok {V} p (e : V) (d : node V) :
  notes_ok d (set_at p e d) [] (insert_notes p d (set_at p e d)).
Proof.
  split; [intros Q l _; now exists Q|]. intros P. cbn [app].
  pose proof (last_for_spec P (insert_notes p d (set_at p e d))) as El.
  destruct (last_for P (insert_notes p d (set_at p e d))) as [l|].
  - unfold insert_notes in El. apply in_flat_map in El as (pre & _ & Hin).
    destruct (ls_at (set_at p e d) pre) as [l'|] eqn:E'; [|destruct Hin].
    destruct Hin as [[= -> ->]|[]]. unfold LS. now rewrite E'.
  - (* a proper prefix of the key has a list afterwards: had a child been created below it, it would have a note *)
    apply LS_set_at. intros k b Hp Hg.
    pose proof (ls_at_set_prefix e P k b d) as Hne. rewrite <- Hp in Hne.
    destruct (ls_at (set_at p e d) P) as [l|] eqn:Els; [|congruence].
    elim (El P l); [|reflexivity]. unfold insert_notes. apply in_flat_map. exists P. rewrite Els. split; [|now left].
    apply created_at_some. now exists P, k, b.
Qed.

Lemma last_for_off trav k R notes :
  (forall Q l, In (Q, l) notes -> exists P', Q = (trav ++ [k]) ++ P') -> (forall P', R <> k :: P') ->
  last_for (trav ++ R) notes = None.
Proof.
  intros H HR. apply last_for_none. intros Q l Hin E. destruct (H Q l Hin) as (P' & ->).
  rewrite <- app_assoc in E. apply app_inv_head in E. exact (HR P' (eq_sym E)).
Qed.

Lemma last_for_level trav k P (b : bool) l : last_for (trav ++ k :: P) (if b then [(trav, l)] else []) = None.
Proof.
  apply last_for_none. intros Q l' Hin E. destruct b; [|destruct Hin].
  destruct Hin as [[= <- <-]|[]]. exact (app_cons_ne _ _ _ E).
Qed.

Lemma LS_replaced {V} (v : option V) cs k (c c' : node V) k2 P :
  NoDup (names cs) -> find_child k cs = Some c ->
  LS (Node v (trim_kids (mod_child k (fun _ => c') cs))) (k2 :: P) =
  if str_eqb k2 k then LS c' P else LS (Node v cs) (k2 :: P).
Proof.
  intros Hnd Hf. rewrite LS_trim by now rewrite names_mod_child. rewrite !LS_cons, find_mod_child, Hf.
  now destruct (str_eqb k2 k).
Qed.

(* one child is replaced by one whose notes are in order, the node is trimmed, and its new list is noted
   if the trim removed something: the step both delete and pattern delete take at a literal segment *)
Lemma replaced_child_notes_ok {V} (v : option V) cs k (c c' : node V) trav ns :
  NoDup (names cs) -> find_child k cs = Some c -> notes_ok c c' (trav ++ [k]) ns ->
  notes_ok (Node v cs) (Node v (trim_kids (mod_child k (fun _ => c') cs))) trav
           (ns ++ (if any_obsolete (mod_child k (fun _ => c') cs)
                   then [(trav, names (trim_kids (mod_child k (fun _ => c') cs)))] else [])).
Proof.
  intros Hnd Ef (H1 & H2). set (kids := mod_child k (fun _ => c') cs). split.
  - intros Q l Hin. apply in_app_iff in Hin as [Hin|Hin].
    + destruct (H1 Q l Hin) as (P' & ->). exists (k :: P'). now rewrite <- app_assoc.
    + destruct (any_obsolete kids); [|destruct Hin]. destruct Hin as [[= <- <-]|[]]. exists []. now rewrite app_nil_r.
  - intros [|k2 P]; rewrite last_for_app.
    + (* the node itself *)
      rewrite (last_for_off trav k [] ns H1) by discriminate. rewrite app_nil_r.
      destruct (any_obsolete kids) eqn:Ea; cbn [last_for]; [now rewrite path_eqb_refl|].
      rewrite LS_nil, (live_trim kids) by now apply live_any. apply names_mod_child.
    + rewrite last_for_level. unfold kids. rewrite (LS_replaced v cs k c c' k2 P Hnd Ef).
      destruct (str_eqb_spec k2 k) as [->|Hne].
      * specialize (H2 P). rewrite <- app_assoc in H2. rewrite LS_cons, Ef. exact H2.
      * now rewrite (last_for_off trav k (k2 :: P) ns H1) by (intros P' [= E _]; congruence).
Qed.

Theorem del_notes_ok {V} p : forall (n : node V) pre,
  wfn n -> cleann n -> notes_ok n (del_at p n) pre (del_notes pre p n).
Proof.
  induction p as [|k p IH]; intros [v cs] pre Hw Hc; cbn [del_at del_notes nkids nval].
  - apply notes_ok_none. now intros [|k P].
  - destruct (find_child k cs) as [c|] eqn:Ef; [|now apply notes_ok_none].
    pose proof (find_child_In _ _ _ Ef) as Hin. rewrite mod_child_found, Ef.
    apply (replaced_child_notes_ok v cs k c); [now apply wfn_unfold in Hw|exact Ef|].
    apply IH; [exact (wfn_kid _ _ _ _ Hw Hin)|exact (proj2 (cleann_kid _ _ _ _ Hc Hin))].
Qed.

Lemma multi_notes_fix {V} (v : option V) cs trav :
  multi_notes (Node v cs) trav =
  flat_map (fun kc => (trav, []) :: multi_notes (snd kc) (trav ++ [fst kc])) cs.
Proof.
  cbn [multi_notes]. induction cs as [|[k c] cs IH]; cbn [flat_map fst snd]; [reflexivity|].
  cbn [app]. now rewrite IH.
Qed.

Lemma multi_notes_ok {V} (n : node V) : forall trav,
  (forall Q l, In (Q, l) (multi_notes n trav) -> l = [] /\ exists P, Q = trav ++ P) /\
  (forall P, (forall l, ~ In (trav ++ P, l) (multi_notes n trav)) -> LS n P = []).
Proof.
  induction n as [v cs IH] using node_In_ind. intros trav. rewrite multi_notes_fix. split.
  - intros Q l Hin. apply in_flat_map in Hin as ([k c] & Hkc & [[= <- <-]|Hin]).
    + split; [reflexivity|]. exists []. now rewrite app_nil_r.
    + cbn [fst snd] in Hin. destruct (proj1 (IH k c Hkc (trav ++ [k])) Q l Hin) as (-> & P & ->).
      split; [reflexivity|]. exists (k :: P). now rewrite <- app_assoc.
  - intros [|k P] Hno.
    + rewrite LS_nil. destruct cs as [|[k c] cs]; [reflexivity|].
      elim (Hno []). rewrite app_nil_r. apply in_flat_map. exists (k, c). split; now left.
    + rewrite LS_cons. destruct (find_child k cs) as [c|] eqn:Ef; [|reflexivity].
      pose proof (find_child_In _ _ _ Ef) as Hkc.
      apply (proj2 (IH k c Hkc (trav ++ [k]))). intros l Hin. apply (Hno l), in_flat_map.
      exists (k, c). split; [exact Hkc|]. right. cbn [fst snd]. now rewrite <- app_assoc in Hin.
Qed.

Lemma trim_app {V} (a b : list (str * node V)) : trim_kids (a ++ b) = trim_kids a ++ trim_kids b.
Proof. apply filter_app. Qed.

Definition news {V} (rs : list (str * node V * delm_res V)) : list (str * node V) :=
  map (fun x => (fst (fst x), dr_node (snd x))) rs.
Definition origs {V} (rs : list (str * node V * delm_res V)) : list (str * node V) :=
  map (fun x => (fst (fst x), snd (fst x))) rs.

Definition child_ok {V} (trav : list str) (x : str * node V * delm_res V) : Prop :=
  is_obsolete (snd (fst x)) = false /\
  notes_ok (snd (fst x)) (dr_node (snd x)) (trav ++ [fst (fst x)]) (dr_notes (snd x)).

(* the `?` loop takes the step of replaced_child_notes_ok for one child after the other; [done] are the
   children already processed that survived, the children of [rs] are still to come *)
Lemma wild_notes_ok {V} trav (v : option V) : forall (rs : list (str * node V * delm_res V)) done,
  Forall (child_ok trav) rs -> NoDup (names (done ++ origs rs)) -> live done ->
  notes_ok (Node v (done ++ origs rs)) (Node v (done ++ trim_kids (news rs))) trav (wild_notes trav done rs).
Proof.
  induction rs as [|[[k c] r] rs IH]; intros done Hrs Hnd Hdone; [now apply notes_ok_none|].
  apply Forall_cons_iff in Hrs as ((_ & Hn) & Hrs'). cbn [fst snd] in Hn.
  cbn [wild_notes news origs map fst snd] in *. fold (news rs) (origs rs) in *.
  assert (Horigs : live (origs rs)).
  { unfold live, origs. rewrite Forall_map. eapply Forall_impl; [|exact Hrs']. now intros x (H & _). }
  set (c' := dr_node r) in *.
  destruct (child_mid k (fun _ => c') c done (origs rs)) as (Ef & Em).
  { intros H. unfold names in Hnd. rewrite map_app in Hnd. apply NoDup_remove_2 in Hnd. apply Hnd, in_or_app. now left. }
  pose proof (replaced_child_notes_ok v _ k c c' trav (dr_notes r) Hnd Ef Hn) as Hstep. rewrite Em in Hstep.
  rewrite app_assoc. apply (notes_ok_trans _ _ _ _ _ _ Hstep).
  (* the rest of the loop starts from the trimmed node *)
  assert (Hnd' : NoDup (names (trim_kids (done ++ (k, c') :: origs rs)))).
  { apply NoDup_names_filter. now rewrite <- Em, names_mod_child. }
  change ((k, c') :: origs rs) with ([(k, c')] ++ origs rs) in *. change ((k, c') :: news rs) with ([(k, c')] ++ news rs).
  rewrite !trim_app, (live_trim _ Hdone), (live_trim _ Horigs), !app_assoc in *.
  apply IH; [exact Hrs'|exact Hnd'|]. apply Forall_app. split; [exact Hdone|apply live_trimmed].
Qed.

Theorem delm_notes_ok {V} (n : node V) : forall trav pat,
  wfn n -> cleann n -> notes_ok n (dr_node (delm n trav pat)) trav (dr_notes (delm n trav pat)).
Proof.
  intros trav pat Hw. revert trav pat. pattern n. revert n Hw. apply wf_node_ind. intros v cs _ Hnd IH trav pat Hc.
  destruct pat as [|[s| |] tail].
  - (* the pattern ends here: the value goes, the children stay *)
    rewrite delm_nil. apply notes_ok_none. now intros [|k P].
  - rewrite delm_reg. destruct (find_child s cs) as [c|] eqn:Ef; cbv zeta; cbn [dr_node dr_notes].
    + pose proof (find_child_In _ _ _ Ef) as Hin.
      apply (replaced_child_notes_ok v cs s c); [exact Hnd|exact Ef|]. exact (IH s c Hin _ _ (proj2 (cleann_kid _ _ _ _ Hc Hin))).
    + apply notes_ok_none. intros P. now rewrite (trim_clean v cs Hc).
  - (* `?`: every child in turn, trimming after each *)
    rewrite delm_wild. cbv zeta. cbn [dr_node dr_notes].
    set (rs := wild_rs trav tail cs).
    assert (Hrs : Forall (child_ok trav) rs).
    { apply Forall_map, Forall_forall. intros [k c] Hkc.
      destruct (cleann_kid _ _ _ _ Hc Hkc) as (Hno & Hcc). split; [exact Hno|now apply (IH k)]. }
    assert (Horigs : origs rs = cs).
    { unfold origs, rs, wild_rs. rewrite map_map. cbn [fst snd]. rewrite <- (map_id cs) at 2. apply map_ext. now intros [k c]. }
    fold (news rs). rewrite <- Horigs at 1. apply (wild_notes_ok trav v rs []); [exact Hrs|now rewrite Horigs|constructor].
  - destruct tail as [|s tail].
    + (* a trailing `#`: everything below goes *)
      rewrite delm_multi. cbn [dr_node dr_notes].
      destruct (multi_notes_ok (Node v cs) trav) as (H1 & H2). split.
      * intros Q l Hin. exact (proj2 (H1 Q l Hin)).
      * intros P. rewrite (LS_obsolete (Node None [])) by reflexivity.
        pose proof (last_for_spec (trav ++ P) (multi_notes (Node v cs) trav)) as El.
        destruct (last_for (trav ++ P) (multi_notes (Node v cs) trav)) as [l|]; [exact (proj1 (H1 _ _ El))|].
        symmetry. apply H2. intros l Hin. exact (El _ l Hin eq_refl).
    + rewrite delm_multi_bad. now apply notes_ok_none.
Qed.

Theorem LS_is_do_ls s parent :
  LS (data s) (match parent with Some p => split slash p | None => [] end) =
  match do_ls s parent with RNames l => l | _ => [] end.
Proof.
  unfold do_ls, LS. destruct parent as [p|].
  - now destruct (ls_at (data s) (split slash p)).
  - reflexivity.
Qed.

Definition lmap := N -> option (list str).
Definition apply_ls (m : lmap) (evs : list (N * list str)) : lmap :=
  fold_left (fun (m : lmap) il => fun i => if N.eqb i (fst il) then Some (snd il) else m i) evs m.

Lemma apply_ls_app m a b : apply_ls m (a ++ b) = apply_ls (apply_ls m a) b.
Proof. apply fold_left_app. Qed.

Lemma apply_single m (l : list str) (L : list lssub) i :
  apply_ls m (map (fun s' => (l_inst s', l)) L) i =
  if existsb (fun s' => N.eqb i (l_inst s')) L then Some l else m i.
Proof.
  revert m. induction L as [|s' L IH]; intros m; [reflexivity|]. cbn [map apply_ls fold_left existsb].
  change (fold_left _ ?x ?y) with (apply_ls y x). rewrite IH. cbn [fst snd].
  destruct (existsb (fun s'0 => N.eqb i (l_inst s'0)) L); [now rewrite orb_true_r|].
  rewrite orb_false_r. reflexivity.
Qed.

Definition notify_on (subs : list lssub) (notes : list (list str * list str)) : list (N * list str) :=
  flat_map (fun note => map (fun l => (l_inst l, snd note))
                            (filter (fun l => path_eqb (l_parent l) (fst note)) subs)) notes.

Lemma apply_notify subs sub : NoDup (map l_inst subs) -> In sub subs -> forall notes m,
  apply_ls m (notify_on subs notes) (l_inst sub) =
  match last_for (l_parent sub) notes with Some l => Some l | None => m (l_inst sub) end.
Proof.
  intros Hnd Hin. induction notes as [|[Q l] notes IH]; intros m; [reflexivity|].
  cbn [notify_on flat_map fst snd]. fold (notify_on subs notes). rewrite apply_ls_app, IH. cbn [last_for].
  destruct (last_for (l_parent sub) notes); [reflexivity|]. rewrite apply_single.
  assert (E : existsb (fun s' => N.eqb (l_inst sub) (l_inst s')) (filter (fun l0 => path_eqb (l_parent l0) Q) subs)
              = path_eqb Q (l_parent sub)).
  { destruct (path_eqb_spec Q (l_parent sub)) as [->|Hne].
    - apply existsb_exists. exists sub. split; [|apply N.eqb_refl]. apply filter_In. split; [exact Hin|apply path_eqb_refl].
    - apply Bool.not_true_is_false. intros H. apply existsb_exists in H as (s' & Hs' & Ee).
      apply filter_In in Hs' as (Hs' & Hp). apply N.eqb_eq in Ee.
      pose proof (NoDup_map_eq l_inst subs sub s' Hnd Hin Hs' Ee) as <-.
      destruct (path_eqb_spec (l_parent sub) Q); congruence. }
  rewrite E. now destruct (path_eqb Q (l_parent sub)).
Qed.

Record G (s : core) (m : lmap) : Prop := {
  g_inv : Inv s;
  g_nodup : NoDup (map l_inst (lssubs s));
  g_fresh : forall sub, In sub (lssubs s) -> l_inst sub < next_inst s;
  g_last : forall sub, In sub (lssubs s) -> m (l_inst sub) = Some (LS (data s) (l_parent sub)) }.

Definition GStep (r : core * output) (s : core) : Prop :=
  forall m, G s m -> G (fst r) (apply_ls m (o_ls (snd r))).

Lemma G_frame s s' m :
  data s' = data s -> lssubs s' = lssubs s -> next_inst s <= next_inst s' -> G s m -> G s' m.
Proof.
  intros Ed El Hn [HI Hnd Hfr Hl]. split.
  - unfold Inv in *. now rewrite Ed.
  - now rewrite El.
  - intros sub Hin. rewrite El in Hin. specialize (Hfr sub Hin). lia.
  - intros sub Hin. rewrite El in Hin. rewrite Ed. now apply Hl.
Qed.

Lemma GStep_frame s r :
  data (fst r) = data s -> lssubs (fst r) = lssubs s -> next_inst s <= next_inst (fst r) -> o_ls (snd r) = [] -> GStep r s.
Proof. intros Ed El Hn Ho m HG. rewrite Ho. now apply (G_frame s). Qed.

Lemma GStep_same s r : GStep (s, out_res r) s.
Proof. apply GStep_frame; reflexivity. Qed.

(* from the state a session's requests start in back to [s], and through the wrapping of its answer *)
Lemma GStep_via s s0 r g x :
  data s0 = data s -> lssubs s0 = lssubs s -> next_inst s <= next_inst s0 -> GStep r s0 ->
  GStep (fst r, end_out g x (snd r)) s.
Proof.
  intros Ed El Hn Hr m HG. cbn [fst snd].
  replace (o_ls (end_out g x (snd r))) with (o_ls (snd r)) by (unfold end_out; destruct (is_crash _); reflexivity).
  apply Hr. now apply (G_frame s).
Qed.

Lemma GStep_comp s r1 r2 : GStep r1 s -> GStep r2 (fst r1) -> GStep (fst r2, out_app (snd r1) (snd r2)) s.
Proof. intros H1 H2 m HG. cbn [fst snd out_app o_ls]. rewrite apply_ls_app. apply H2. now apply H1. Qed.

Lemma G_data_change s m d' n' notes :
  G s m -> Inv (set_data s d' n') -> notes_ok (data s) d' [] notes ->
  G (set_data s d' n') (apply_ls m (notify_ls s notes)).
Proof.
  intros [HI Hnd Hfr Hl] HI' (_ & Hok). split; cbn [lssubs set_data next_inst]; try assumption.
  intros sub Hin. change (notify_ls s notes) with (notify_on (lssubs s) notes).
  rewrite (apply_notify _ sub Hnd Hin). cbn [data set_data]. specialize (Hok (l_parent sub)). cbn [app] in Hok.
  destruct (last_for (l_parent sub) notes) as [l|]; [now rewrite Hok|]. rewrite Hl by exact Hin. now rewrite Hok.
Qed.

Lemma insert_G s c key e force : GStep (do_insert s c key e force) s.
Proof.
  intros m HG. destruct (insert_cases s c key e force) as [(_ & r & ->)|(p & ex & ch & e' & Ep & _ & _ & ->)]; [exact HG|].
  destruct (parse_segments_good _ _ Ep) as (_ & Hgp & Hne).
  apply G_data_change; [exact HG|exact (Inv_set_at s p e' _ (g_inv _ _ HG) Hgp Hne)|apply insert_notes_ok].
Qed.

Lemma delete_G s c key : GStep (do_delete s c key) s.
Proof.
  intros m HG. pose proof (g_inv _ _ HG) as HI. pose proof HI as (Hw & Hc & _).
  destruct (delete_cases s c key HI) as [(_ & code & ->)|(p & e & Ep & _ & _ & ->)]; [exact HG|].
  destruct (parse_segments_good _ _ Ep) as (_ & _ & Hne).
  apply G_data_change; [exact HG|now apply Inv_del_at|now apply del_notes_ok].
Qed.

Lemma pdelete_G s c pat : GStep (do_pdelete s c false pat) s.
Proof.
  intros m HG. pose proof (g_inv _ _ HG) as HI. pose proof HI as (Hw & Hc & _).
  destruct (pdelete_cases s c pat HI) as [(_ & code & ->)|(_ & ->)]; [exact HG|].
  apply G_data_change; [exact HG|now apply Inv_delm|now apply delm_notes_ok].
Qed.

Lemma unsubscribe_ls_G s c t : GStep (do_unsubscribe_ls s c t) s.
Proof.
  unfold do_unsubscribe_ls. destruct (assoc_get id_eqb (c, t) (ls_subscriptions s)) as [path|]; [|apply GStep_same].
  intros m [HI Hnd Hfr Hl]. split; cbn [fst data lssubs next_inst set_ls]; try assumption.
  - now apply NoDup_map_filter.
  - intros sub Hin. apply filter_In in Hin as (Hin & _). now apply Hfr.
  - intros sub Hin. apply filter_In in Hin as (Hin & _). now apply Hl.
Qed.

Lemma subscribe_ls_G s c t parent : GStep (do_subscribe_ls s c t parent) s.
Proof.
  intros m [HI Hnd Hfr Hl]. unfold do_subscribe_ls. cbv zeta. cbn [fst snd o_ls apply_ls fold_left].
  rewrite <- LS_is_do_ls. set (path := match parent with Some p => split slash p | None => [] end).
  split; cbn [data lssubs next_inst set_ls]; try assumption.
  - rewrite map_app. cbn [map l_inst]. apply NoDup_snoc; [exact Hnd|]. intros Hin.
    apply in_map_iff in Hin as (sub & E & Hin). specialize (Hfr sub Hin). lia.
  - intros sub Hin. apply in_app_iff in Hin as [Hin|[<-|[]]]; [specialize (Hfr sub Hin); lia|cbn [l_inst]; lia].
  - intros sub Hin. cbn [fst snd]. apply in_app_iff in Hin as [Hin|[<-|[]]].
    + specialize (Hfr sub Hin). destruct (N.eqb_spec (l_inst sub) (next_inst s)) as [E|_]; [lia|]. now apply Hl.
    + cbn [l_inst l_parent]. now rewrite N.eqb_refl.
Qed.

(* every request except import (known finding F18b: import sends no ls notification) *)
Definition not_import (o : op) : Prop := match o with OImport _ => False | _ => True end.

(* only data requests and ls-subscriptions touch what G speaks of *)
Lemma request_G s o : not_import o -> part_of o <> PSession -> GStep (step s o) s.
Proof.
  intros Hni Hp. pose proof (step_frame s o) as Hf. pose proof (step_out s o) as Ho. cbv zeta in Ho.
  pose proof (step_mono s o) as Hi.
  destruct (part_of o) eqn:Ep.
  - apply GStep_frame; [now rewrite Hf|now rewrite Hf|exact Hi|apply Ho].
  - destruct o; try discriminate Ep; [apply insert_G|apply insert_G|apply delete_G|apply pdelete_G|contradiction].
  - destruct Hf as (t & m & ni & E). apply GStep_frame; [now rewrite E|now rewrite E|exact Hi|apply Ho].
  - destruct o; try discriminate Ep; [apply subscribe_ls_G|apply unsubscribe_ls_G].
  - destruct Hf as (m & E). apply GStep_frame; [now rewrite E|now rewrite E|exact Hi|apply Ho].
  - destruct Hf as (l & lk & nr & E). apply GStep_frame; [now rewrite E|now rewrite E|exact Hi|apply Ho].
  - now elim Hp.
Qed.

Theorem step_G s o : not_import o -> GStep (step s o) s.
Proof.
  intros Hni.
  assert (Hk : forall c s o, end_kind c o -> GStep (step s o) s) by (intros c0 s0 o0 Hk; apply request_G; now destruct o0).
  destruct o; try (apply request_G; [exact Hni|discriminate]); cbn [step].
  - apply (connected_lifts (fun s r => GStep r s) GStep_same GStep_comp Hk). intros r.
    apply GStep_via; [reflexivity|reflexivity|cbn; lia].
  - apply (disconnected_lifts (fun s r => GStep r s) GStep_same GStep_comp Hk). intros l' g x r _.
    destruct (prep_same s c) as (Ed & _ & _ & _ & El & _ & En). apply GStep_via; [exact Ed|exact El|rewrite En; lia].
Qed.

Fixpoint ls_trace (s : core) (ops : list op) : list (N * list str) :=
  match ops with
  | [] => []
  | o :: ops' => o_ls (snd (step s o)) ++ ls_trace (fst (step s o)) ops'
  end.

Lemma G_init : G init (fun _ => None).
Proof.
  split; [exact Inv_init|constructor|intros sub []|intros sub []].
Qed.

Lemma run_G ops : forall s m, Forall not_import ops -> G s m -> G (final s ops) (apply_ls m (ls_trace s ops)).
Proof.
  induction ops as [|o ops IH]; intros s m Hni HG; [exact HG|].
  apply Forall_cons_iff in Hni as (Ho & Hni'). cbn [ls_trace]. rewrite apply_ls_app.
  change (final s (o :: ops)) with (final (fst (step s o)) ops). apply IH; [exact Hni'|]. now apply step_G.
Qed.

(* C05: after any history of requests of any kind except import, what every live ls-subscription received last is
   the list ls returns for its parent now *)
Theorem last_list_is_ls ops :
  Forall not_import ops ->
  let s := final init ops in
  forall sub, In sub (lssubs s) ->
    apply_ls (fun _ => None) (ls_trace init ops) (l_inst sub) = Some (LS (data s) (l_parent sub)).
Proof. intros Hni s sub Hin. exact (g_last _ _ (run_G ops init _ Hni G_init) sub Hin). Qed.
