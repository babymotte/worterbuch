From WB Require Import Base.Str Base.StrFacts Model.Key Model.Match.

Lemma store_vs_doc p : forall k,
  wf_pat p = true -> store_match p k = doc_match p k || zero_multi p k.
Proof.
  induction p as [|s p IH]; intros k Hwf.
  - destruct k; reflexivity.
  - destruct s as [s| |].
    + cbn [wf_pat] in Hwf. destruct k as [|x k]; [reflexivity|].
      cbn [store_match doc_match zero_multi]. rewrite IH by assumption.
      destruct (str_eqb s x); reflexivity.
    + cbn [wf_pat] in Hwf. destruct k as [|x k]; [reflexivity|].
      cbn [store_match doc_match zero_multi]. now apply IH.
    + destruct p as [|s' p]; [|discriminate].
      destruct k; reflexivity.
Qed.

Lemma zero_multi_last p : forall k, zero_multi p k = true -> exists p', p = p' ++ [Multi].
Proof.
  induction p as [|[s| |] p IH]; intros k H; [discriminate| | |].
  - destruct k as [|x k]; [discriminate|]. apply andb_true_iff in H as [_ H].
    destruct (IH k H) as (p' & ->). now exists (Reg s :: p').
  - destruct k as [|x k]; [discriminate|]. destruct (IH k H) as (p' & ->). now exists (Wild :: p').
  - destruct p; [now exists []|discriminate].
Qed.

Lemma zero_multi_app p' : forall k, wf_pat (p' ++ [Multi]) = true -> zero_multi (p' ++ [Multi]) k = doc_match p' k.
Proof.
  induction p' as [|[s| |] p' IH]; intros k Hwf.
  - destruct k; reflexivity.
  - destruct k as [|x k]; [reflexivity|]. cbn [app zero_multi doc_match]. now rewrite IH.
  - destruct k as [|x k]; [reflexivity|]. now apply IH.
  - destruct p'; discriminate.
Qed.

Lemma zero_multi_spec p : forall k, wf_pat p = true ->
  (zero_multi p k = true <-> exists p', p = p' ++ [Multi] /\ doc_match p' k = true).
Proof.
  intros k Hwf. split.
  - intros H. destruct (zero_multi_last p k H) as (p' & ->). exists p'. now rewrite <- zero_multi_app.
  - intros (p' & -> & H). now rewrite zero_multi_app.
Qed.

Lemma sub_eq_doc p : forall k, wf_pat p = true -> sub_match p k = doc_match p k.
Proof.
  induction p as [|s p IH]; intros k Hwf.
  - reflexivity.
  - destruct s as [s| |].
    + cbn [wf_pat] in Hwf. destruct k as [|x k]; [reflexivity|].
      cbn [sub_match doc_match]. now rewrite IH.
    + cbn [wf_pat] in Hwf. destruct k as [|x k]; [reflexivity|].
      cbn [sub_match doc_match]. now apply IH.
    + destruct p as [|s' p]; [|discriminate]. destruct k; reflexivity.
Qed.

(* C04: apart from finding F2 (a trailing `#` standing for zero levels, [zero_multi]) the three relations are one *)
Lemma one_relation p k :
  wf_pat p = true -> zero_multi p k = false ->
  store_match p k = doc_match p k /\ sub_match p k = doc_match p k.
Proof.
  intros Hwf Hz. split.
  - rewrite store_vs_doc, Hz by assumption. now rewrite orb_false_r.
  - now apply sub_eq_doc.
Qed.

Lemma doc_match_literal k k' : doc_match (map Reg k) k' = path_eqb k k'.
Proof.
  revert k'; induction k as [|x k IH]; intros [|y k']; cbn; try reflexivity.
  now rewrite IH.
Qed.

Lemma store_match_lits l pat : forall q, store_match (map Reg l ++ pat) q = true -> exists q', q = l ++ q'.
Proof.
  induction l as [|x l IH]; intros q H; [now exists q|]. destruct q as [|y q]; [discriminate|].
  cbn [map app store_match] in H. apply andb_prop in H as (E & H). apply str_eqb_eq in E. subst y.
  destruct (IH q H) as (q' & ->). now exists q'.
Qed.
