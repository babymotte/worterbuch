(* Store::nmerge (import): the merged tree holds the imported entries over the old ones. *)
From WB Require Import Base.ListFacts Base.Str Base.StrFacts Base.Json Model.Key Model.Store Model.Entry Model.Core
  Proofs.StoreFacts Proofs.TreeInv Proofs.GoodNames.

Definition merge_kids (ocs kids : list (str * node entry)) : list (str * node entry) :=
  fold_left (fun kids kc => upd_child empty_node (fst kc) (fun own => merge own (snd kc)) kids) ocs kids.

Lemma merge_go_fold (ocs : list (str * node entry)) : forall kids,
  (fix go (ocs kids : list (str * node entry)) {struct ocs} : list (str * node entry) :=
     match ocs with
     | [] => kids
     | (k, c) :: ocs' => go ocs' (upd_child empty_node k (fun own => merge own c) kids)
     end) ocs kids = merge_kids ocs kids.
Proof.
  induction ocs as [|[k c] ocs IH]; intros kids; [reflexivity|].
  unfold merge_kids. cbn [fold_left fst snd]. apply IH.
Qed.

Lemma merge_unfold n ov ocs :
  merge n (Node ov ocs) =
  let v1 := match ov with Some v => Some v | None => nval n end in
  match ocs with
  | [] => Node v1 (nkids n)
  | _ => Node v1 (trim_kids (merge_kids ocs (nkids n)))
  end.
Proof.
  cbn [merge]. destruct ocs as [|[k c] ocs]; [reflexivity|]. cbn zeta. f_equal. f_equal.
  exact (merge_go_fold ((k, c) :: ocs) (nkids n)).
Qed.

Lemma Forall_merge_kids (P : str -> node entry -> Prop) ocs : forall kids,
  Forall (fun kc => P (fst kc) (snd kc)) kids ->
  (forall k c, In (k, c) ocs -> P k empty_node /\ forall own, P k own -> P k (merge own c)) ->
  Forall (fun kc => P (fst kc) (snd kc)) (merge_kids ocs kids).
Proof.
  induction ocs as [|[k c] ocs IH]; intros kids Hk H; [exact Hk|].
  cbn [merge_kids fold_left fst snd]. destruct (H k c (or_introl eq_refl)) as [He Hm]. apply IH.
  - apply Forall_upd_child; [assumption|exact Hm|now apply Hm].
  - intros k' c' Hin. apply H. now right.
Qed.

Lemma NoDup_merge_kids ocs : forall kids, NoDup (names kids) -> NoDup (names (merge_kids ocs kids)).
Proof.
  induction ocs as [|[k c] ocs IH]; intros kids H; [exact H|].
  cbn [merge_kids fold_left fst snd]. apply IH. now apply NoDup_names_upd_child.
Qed.

Lemma find_merge_kids ocs : forall kids k2,
  NoDup (names ocs) ->
  find_child k2 (merge_kids ocs kids) =
  match find_child k2 ocs with
  | Some c => Some (merge (match find_child k2 kids with Some own => own | None => empty_node end) c)
  | None => find_child k2 kids
  end.
Proof.
  induction ocs as [|[k c] ocs IH]; intros kids k2 Hnd; [reflexivity|].
  inversion Hnd as [|? ? Hni Hnd']; subst.
  cbn [merge_kids fold_left fst snd]. fold (merge_kids ocs (upd_child empty_node k (fun own => merge own c) kids)).
  rewrite IH by assumption. cbn [find_child].
  destruct (str_eqb_spec k2 k) as [->|Hn].
  - assert (find_child k ocs = None) as -> by now apply find_child_None.
    now rewrite find_upd_child_same.
  - now rewrite find_upd_child_other.
Qed.

Theorem wfn_merge (other : node entry) : forall n, wfn n -> wfn other -> wfn (merge n other).
Proof.
  induction other as [ov ocs IH] using node_In_ind. intros [v cs] Hwn Hwo.
  (* [merge_unfold] branches on [ocs = []]; here and below the other branch is taken with [ocs] kept whole,
     as the induction hypothesis speaks of its members *)
  rewrite merge_unfold. cbn [nval nkids]. destruct ocs as [|kc ocs'] eqn:Eo; [exact Hwn|]. rewrite <- Eo in *.
  apply wfn_unfold in Hwn as [Hnd Hk]. apply (wfn_filter v), wfn_unfold. split; [now apply NoDup_merge_kids|].
  apply (Forall_merge_kids (fun _ c => wfn c)); [exact Hk|]. intros k c Hin. split; [exact wfn_empty|].
  intros own Ho. exact (IH _ _ Hin own Ho (wfn_kid _ _ _ _ Hwo Hin)).
Qed.

Theorem lookup_merge (other : node entry) : forall n q,
  wfn n -> wfn other ->
  lookup (merge n other) q = match lookup other q with Some e => Some e | None => lookup n q end.
Proof.
  induction other as [ov ocs IH] using node_In_ind. intros [v cs] q Hwn Hwo.
  rewrite merge_unfold. cbn [nval nkids]. destruct q as [|k q]; [destruct ocs; cbn; now destruct ov|].
  destruct ocs as [|kc ocs'] eqn:Eo; [reflexivity|]. rewrite <- Eo in *.
  pose proof (proj1 (proj1 (wfn_unfold _ _) Hwn)) as Hnd. pose proof (proj1 (proj1 (wfn_unfold _ _) Hwo)) as Hndo.
  rewrite lookup_trim by now apply NoDup_merge_kids. rewrite !lookup_cons, find_merge_kids by assumption.
  destruct (find_child k ocs) as [c|] eqn:Ef; [|reflexivity]. apply find_child_In in Ef.
  pose proof (wfn_kid _ _ _ _ Hwo Ef) as Hwc. destruct (find_child k cs) as [own|] eqn:Ec.
  - apply (IH _ _ Ef); [|exact Hwc]. exact (wfn_kid _ _ _ _ Hwn (find_child_In _ _ _ Ec)).
  - rewrite (IH _ _ Ef) by (exact wfn_empty || exact Hwc). now rewrite lookup_empty.
Qed.

(* nothing is asked of [other]: what it leaves obsolete, [trim_kids] drops *)
Theorem cleann_merge (other : node entry) : forall n, cleann n -> cleann (merge n other).
Proof.
  induction other as [ov ocs IH] using node_In_ind. intros [v cs] Hcl.
  rewrite merge_unfold. cbn [nval nkids]. destruct ocs as [|kc ocs'] eqn:Eo; [exact Hcl|]. rewrite <- Eo in *.
  apply cleann_trim, (Forall_merge_kids (fun _ c => cleann c)); [now apply cleann_kids in Hcl|].
  intros k c Hin. split; [exact I|]. exact (IH _ _ Hin).
Qed.

Theorem goodn_merge (other : node entry) : forall n, goodn n -> goodn other -> goodn (merge n other).
Proof.
  induction other as [ov ocs IH] using node_In_ind. intros [v cs] Hg Hgo.
  rewrite merge_unfold. cbn [nval nkids]. destruct ocs as [|kc ocs'] eqn:Eo; [exact Hg|]. rewrite <- Eo in *.
  apply goodn_unfold in Hg, Hgo. rewrite Forall_forall in Hgo.
  apply goodn_filter, (Forall_merge_kids (fun k c => good_seg k /\ goodn c)); [exact Hg|].
  intros k c Hin. destruct (Hgo _ Hin) as [Hk Hc]. split; [now split|].
  intros own [_ Ho]. split; [exact Hk|exact (IH _ _ Hin own Ho Hc)].
Qed.
