(* C17: no request of any kind takes the core down.  C17Proof.v covers the data requests; here publishes, publish
   streams, subscriptions of both kinds, locks (the assertion of Store::unlock: LockHistory.v) and whole sessions
   starting and ending are added: along every history of requests the step function never takes a crash branch.
   Excluded by [safe_op]: the version overflow of a cset at u64::MAX (known finding F17), the nil client id, which no
   client has, and an import of a tree that is not a map with regular segment names at every level and no value at
   the root (C01Proof.import_ok). *)
From WB Require Import Base.Str Model.Entry Model.Core Proofs.Frame Proofs.CoreFacts Proofs.C01Proof Proofs.C17Proof
  Proofs.LockHistory Proofs.SessionEnd.

Definition safe_op (o : op) : Prop :=
  match o with
  | OCSet _ _ _ ver _ => ver <> u64_max
  | OConnected c | ODisconnected c => c <> 0
  | _ => True
  end /\ import_ok o.

Definition Good (r : core * output) : Prop := is_crash (snd r) = false /\ Inv (fst r).

(* every request but a session start or end: the data requests by C17Proof.v, a release by the lock-table
   invariant (the assertion of Store::unlock); the others have no crash branch and leave the data alone *)
Lemma request_good s o : Inv s -> (part_of o = PLocks -> LH s) -> safe_op o -> part_of o <> PSession -> Good (step s o).
Proof.
  intros HI HLH (Hs & Himp) HP.
  assert (Hnc : o_res (snd (step s o)) <> RCrash).
  { destruct (can_crash o) eqn:C; [|now apply step_crash].
    destruct o; try discriminate C.
    1-4: apply data_request_no_crash; [exact HI|exact I|exact Himp|exact Hs].
    - exact (release_no_crash s c k (HLH eq_refl)).
    - now contradiction HP.
    - now contradiction HP. }
  split; [now apply crash_res|].
  destruct (part_of o) eqn:P; try contradiction.
  2:{ apply (step_refines0 s o HI); [destruct o; try discriminate; exact I|exact Himp|exact Hnc]. }
  all: unfold Inv; rewrite (proj1 (step_keeps_data s o ltac:(congruence) ltac:(congruence))); exact HI.
Qed.

Lemma end_kind_good c s o : end_kind c o -> Inv s -> Good (step s o).
Proof.
  intros Hk HI. apply request_good; [exact HI| | |]; destruct o; try contradiction; try discriminate.
  all: split; exact I.
Qed.

Theorem step_safe s o :
  Inv s -> LH s -> safe_op o ->
  o_res (snd (step s o)) <> RCrash /\ Inv (fst (step s o)) /\ LH (fst (step s o)).
Proof.
  intros HI HLH Hs.
  enough (HG : Good (step s o)).
  { destruct HG as (H1 & H2). split; [now apply crash_res|]. split; [exact H2|]. exact (proj1 (lock_step s o HLH)). }
  destruct (part_of o) eqn:P; try (apply request_good; [assumption|intros _; assumption|assumption|congruence]).
  (* "from a state with the invariant the result is good", as a relation between a state and what a run from it
     returns: it composes through [seq2] (RC), so it passes from the single requests to the runs a session start
     and a session end consist of *)
  set (R := fun (s : core) (r : core * output) => Inv s -> Good r).
  assert (RC : forall s r1 r2, R s r1 -> R (fst r1) r2 -> R s (fst r2, out_app (snd r1) (snd r2))).
  { intros s0 r1 r2 H1 H2 HI0. apply H2, H1, HI0. }
  destruct Hs as (Hc & _). destruct o; try discriminate; cbn [step]; apply N.eqb_neq in Hc.
  - unfold do_connected. rewrite Hc. destruct (existsb (N.eqb c) (clients s)); [split; [reflexivity|exact HI]|].
    match goal with |- Good (fst ?r, _) => assert (Hr : R (set_clients s (clients s ++ [c])) r) end.
    { apply (seq2_lift R RC); [apply (seq2_lift R RC)|]; intros; exact (end_kind_good 0 _ (OSet _ _ _ _) I). }
    destruct (Hr HI) as (H1 & H2). split; [cbn [snd]; rewrite H1; reflexivity|exact H2].
  - (* the locks of the client are released first (the assertion again), then its requests run *)
    pose proof (unlock_all_hist s c HLH) as HU. destruct (unlock_all s c) as [[[l' g] x] cr] eqn:E. destruct HU as (-> & _).
    rewrite (disconnected_run s c _ _ _ Hc E).
    assert (Hr : R (prep s c) (run_ops (end_ops s c) (prep s c))).
    { apply (run_ops_lift R); [intros s0 HI0; now split|exact RC|]. intros s0 o Ho. exact (end_kind_good c s0 o (end_ops_kind s c o Ho)). }
    destruct Hr as (H1 & H2); [unfold Inv; now rewrite (proj1 (prep_same s c))|].
    split; [cbn [snd]; unfold end_out; now rewrite H1|exact H2].
Qed.

(* the statement has the shape its two callers need (WorldAuth.ev_ok_safe for [core_op], WorldRest.wev_ok_safe for
   [wop]): an event of a world runs one request or none *)
Lemma run_opt_safe s (oo : option op) :
  Inv s -> LH s -> (forall o, oo = Some o -> safe_op o) ->
  (forall o, oo = Some o -> is_crash (snd (step s o)) = false) /\
  Inv (final s (match oo with Some o => [o] | None => [] end)) /\ LH (final s (match oo with Some o => [o] | None => [] end)).
Proof.
  intros HI HLH H. destruct oo as [o|]; [|split; [discriminate|split; assumption]].
  destruct (step_safe s o HI HLH (H o eq_refl)) as (Hnc & HI' & HLH'). split; [|split; assumption].
  intros o' [= <-]. now apply crash_res.
Qed.

Theorem history_safe ops : forall s,
  Inv s -> LH s -> Forall safe_op ops -> nocrash (trace s ops) /\ Inv (final s ops).
Proof.
  induction ops as [|o ops IH]; intros s HI HLH Hs; [split; [intros x []|exact HI]|].
  apply Forall_cons_iff in Hs as (Ho & Hos). destruct (step_safe s o HI HLH Ho) as (Hnc & HI' & HLH').
  destruct (IH _ HI' HLH' Hos) as (Hn & Hf). change (final s (o :: ops)) with (final (fst (step s o)) ops).
  split; [|exact Hf]. intros x [<-|Hx]; [now apply crash_res|now apply Hn].
Qed.

Theorem no_request_crashes ops : Forall safe_op ops -> nocrash (trace init ops).
Proof. intros H. exact (proj1 (history_safe ops init Inv_init LH_init H)). Qed.
