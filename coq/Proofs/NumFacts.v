(* Decimal printing (Str.dec_of_N) and parsing (Entry.u64_of_lit) of unsigned numbers round-trip. *)
From WB Require Import Base.Str Base.Json Model.Key Model.Store Model.Entry.
From Coq Require Import Lia.

Definition is_digit (c : N) : bool := (N.leb 48 c && N.leb c 57)%bool.

Lemma is_digit_ok d : d < 10 -> is_digit (48 + d) = true.
Proof. intros H. unfold is_digit. apply andb_true_iff. split; apply N.leb_le; lia. Qed.

Fixpoint digits_value (l : str) (acc : N) : N :=
  match l with [] => acc | c :: l' => digits_value l' (acc * 10 + (c - 48)) end.

Lemma digits_val_value l : forall acc,
  forallb is_digit l = true -> digits_val l acc = Some (digits_value l acc).
Proof.
  induction l as [|c l IH]; intros acc H; [reflexivity|].
  cbn in H. apply andb_true_iff in H as [Hc H]. cbn [digits_val digits_value].
  unfold is_digit in Hc. rewrite Hc. now apply IH.
Qed.

Lemma digits_value_snoc l : forall x b, digits_value (l ++ [x]) b = digits_value l b * 10 + (x - 48).
Proof. induction l as [|y l IH]; intros x b; [reflexivity|]. cbn. apply IH. Qed.

Lemma dec_digits_spec fuel : forall n acc,
  (N.to_nat (N.log2 n) < fuel)%nat ->
  exists D, dec_digits fuel n acc = D ++ acc /\ forallb is_digit D = true /\ D <> [] /\ digits_value D 0 = n.
Proof.
  induction fuel as [|f IH]; intros n acc Hf; [lia|].
  cbn [dec_digits].
  assert (Hd : N.modulo n 10 < 10) by (apply N.mod_lt; lia).
  assert (Hdiv : n = 10 * (n / 10) + n mod 10) by (apply N.div_mod'; lia).
  (* lia is to see quotient and remainder as two unknowns *)
  revert Hd Hdiv. generalize (n / 10) (n mod 10). intros q r Hd Hdiv.
  destruct (N.eqb_spec q 0) as [Hq|Hq].
  - exists [48 + r]. repeat split.
    + cbn [forallb]. now rewrite is_digit_ok.
    + discriminate.
    + cbn [digits_value]. lia.
  - assert (Hlog : (N.to_nat (N.log2 q) < f)%nat).
    { assert (Hl : N.succ (N.log2 q) <= N.log2 n); [|lia].
      rewrite <- N.log2_double by lia. apply N.log2_le_mono. lia. }
    destruct (IH q ((48 + r) :: acc) Hlog) as (D & HD & Hdig & Hne & Hval).
    exists (D ++ [48 + r]). repeat split.
    + rewrite HD. now rewrite <- app_assoc.
    + rewrite forallb_app, Hdig. cbn [forallb andb]. now rewrite is_digit_ok.
    + destruct D; discriminate.
    + rewrite digits_value_snoc, Hval. lia.
Qed.

Lemma dec_of_N_spec n :
  forallb is_digit (dec_of_N n) = true /\ dec_of_N n <> [] /\ digits_value (dec_of_N n) 0 = n.
Proof.
  unfold dec_of_N.
  destruct (dec_digits_spec (S (N.to_nat (N.log2 n))) n []) as (D & -> & H); [lia|]. now rewrite app_nil_r.
Qed.

Theorem digits_val_dec_of_N n : digits_val (dec_of_N n) 0 = Some n.
Proof.
  destruct (dec_of_N_spec n) as (Hdig & _ & Hval). now rewrite digits_val_value, Hval.
Qed.

Lemma dec_of_N_nonempty n : dec_of_N n <> [].
Proof. apply dec_of_N_spec. Qed.

Lemma dec_of_N_digits n : forallb is_digit (dec_of_N n) = true.
Proof. apply dec_of_N_spec. Qed.

Theorem u64_of_lit_dec n : n <= u64_max -> u64_of_lit (dec_of_N n) = Some n.
Proof.
  intros H. unfold u64_of_lit. destruct (dec_of_N n) eqn:E; [now apply dec_of_N_nonempty in E|].
  rewrite <- E, digits_val_dec_of_N. apply N.leb_le in H. now rewrite H.
Qed.
