(* The directory machine of Model/Persist.v: what a flush leaves on disk, at every crash point. *)
From WB Require Import Base.ListFacts Base.Str Base.StrFacts Base.Json Base.JsonFacts Model.Key Model.Consts Model.Store Model.Entry Model.Core
  Model.CodecConsts Model.Codec Model.PersistConsts Model.Persist Proofs.NumFacts Proofs.CodecFacts.
From Coq Require Import Lia.

Lemma fs_get_del n m d : fs_get n (fs_del m d) = if str_eqb n m then None else fs_get n d.
Proof.
  unfold fs_del. induction d as [|[k v] d IH]; cbn; [now destruct (str_eqb n m)|].
  destruct (str_eqb_spec m k) as [<-|Hm]; cbn; rewrite IH; [now destruct (str_eqb n m)|].
  destruct (str_eqb_spec n m) as [->|]; [|reflexivity]. now rewrite (proj2 (str_eqb_neq m k)).
Qed.

Lemma fs_get_put n m v d : fs_get n (fs_put m v d) = if str_eqb n m then Some v else fs_get n d.
Proof. unfold fs_put. cbn. rewrite fs_get_del. now destruct (str_eqb n m). Qed.

Definition slot_names (main : bool) : list str :=
  [slot_store main; slot_store main ++ sfx_sum; slot_gglw main; slot_gglw main ++ sfx_sum].

Definition untouched (names : list str) (d d' : fs) : Prop :=
  forall n, In n names -> fs_get n d' = fs_get n d.

Lemma untouched_trans {ns d1 d2 d3} : untouched ns d1 d2 -> untouched ns d2 d3 -> untouched ns d1 d3.
Proof. intros H1 H2 n Hn. rewrite (H2 n Hn). exact (H1 n Hn). Qed.

Lemma untouched_put ns m v d : ~ In m ns -> untouched ns d (fs_put m v d).
Proof. intros H n Hn. rewrite fs_get_put. destruct (str_eqb_spec n m) as [->|]; [contradiction|reflexivity]. Qed.

Lemma untouched_del ns m d : ~ In m ns -> untouched ns d (fs_del m d).
Proof. intros H n Hn. rewrite fs_get_del. destruct (str_eqb_spec n m) as [->|]; [contradiction|reflexivity]. Qed.

Lemma fs_has_ext {ns n d d'} : untouched ns d d' -> In n ns -> fs_has n d' = fs_has n d.
Proof. intros H Hn. unfold fs_has. now rewrite (H n Hn). Qed.

Lemma read_checked_ext {ns name d d'} :
  untouched ns d d' -> In name ns -> In (name ++ sfx_sum) ns -> read_checked name d' = read_checked name d.
Proof. intros H H1 H2. unfold read_checked. now rewrite (H _ H1), (H _ H2). Qed.

(* one file: write_to_disk with its crash points k .. k+3 *)

Lemma write_to_disk_none k name v d :
  write_to_disk k None name v d = (fs_put name v (fs_del (name ++ sfx_tmp) (fs_put (name ++ sfx_tmp) v d)), false).
Proof. reflexivity. Qed.

Lemma write_to_disk_miss k c name v d :
  c < k \/ k + 4 <= c -> write_to_disk k (Some c) name v d = write_to_disk k None name v d.
Proof.
  intros H. unfold write_to_disk. cbv beta zeta iota.
  now rewrite !(proj2 (N.eqb_neq c _)) by lia.
Qed.

Lemma write_to_disk_crashes k c name v d : k <= c < k + 4 -> snd (write_to_disk k (Some c) name v d) = true.
Proof.
  intros H. unfold write_to_disk. cbv beta zeta iota.
  destruct (N.eqb_spec c k); [reflexivity|].
  destruct (N.eqb_spec c (k + 1)); [reflexivity|].
  destruct (N.eqb_spec c (k + 2)); [reflexivity|].
  destruct (N.eqb_spec c (k + 3)); [reflexivity|]. lia.
Qed.

Lemma write_to_disk_untouched ns k crash name v d :
  ~ In name ns -> ~ In (name ++ sfx_tmp) ns -> untouched ns d (fst (write_to_disk k crash name v d)).
Proof.
  intros H1 H2. pose proof (untouched_put ns _ v d H2) as U.
  pose proof (untouched_trans U (untouched_trans (untouched_del ns _ _ H2) (untouched_put ns _ v _ H1))) as U'.
  destruct crash as [c|]; [|exact U']. unfold write_to_disk. cbv beta zeta iota.
  destruct (N.eqb c k); [intros n _; reflexivity|].
  destruct (N.eqb c (k + 1)); [now apply untouched_put|].
  destruct (N.eqb c (k + 2)); [exact U|].
  now destruct (N.eqb c (k + 3)).
Qed.

Lemma write_to_disk_done k crash name v d :
  snd (write_to_disk k crash name v d) = false ->
  fs_get name (fst (write_to_disk k crash name v d)) = Some v.
Proof.
  assert (D : fs_get name (fst (write_to_disk k None name v d)) = Some v)
    by (rewrite write_to_disk_none; cbn [fst]; now rewrite fs_get_put, str_eqb_refl).
  destruct crash as [c|]; [|intros _; exact D]. revert D. unfold write_to_disk. cbv beta zeta iota.
  destruct (N.eqb c k); [discriminate|].
  destruct (N.eqb c (k + 1)); [discriminate|].
  destruct (N.eqb c (k + 2)); [discriminate|].
  now destruct (N.eqb c (k + 3)).
Qed.

Lemma app_neq_self (a b : str) : b <> [] -> a <> a ++ b.
Proof.
  intros Hb. destruct b; [congruence|apply app_cons_ne].
Qed.

Lemma app_inj_tail_neq (a : str) (b c : str) : b <> c -> a ++ b <> a ++ c.
Proof. intros H E. apply app_inv_head in E. contradiction. Qed.

(* a file with its checksum: write_and_check with its crash points k .. k+7 *)

Definition wfiles (name : str) : list str :=
  [name; name ++ sfx_tmp; name ++ sfx_sum; (name ++ sfx_sum) ++ sfx_tmp].

Lemma write_and_check_miss k c name j d :
  c < k \/ k + 8 <= c -> write_and_check k (Some c) name j d = write_and_check k None name j d.
Proof. intros H. unfold write_and_check. cbv zeta. now rewrite !write_to_disk_miss by lia. Qed.

Lemma write_and_check_alive k name j d : snd (write_and_check k None name j d) = false.
Proof. reflexivity. Qed.

Lemma write_and_check_crashes k c name j d : k <= c < k + 8 -> snd (write_and_check k (Some c) name j d) = true.
Proof.
  intros H. unfold write_and_check. cbv zeta. destruct (N.lt_ge_cases c (k + 4)).
  - rewrite (write_to_disk_crashes k) by lia. apply write_to_disk_crashes. lia.
  - rewrite (write_to_disk_miss k) by lia. apply write_to_disk_crashes. lia.
Qed.

Lemma write_and_check_untouched ns k crash name j d :
  (forall m, In m (wfiles name) -> ~ In m ns) -> untouched ns d (fst (write_and_check k crash name j d)).
Proof.
  intros H. unfold write_and_check. cbv zeta.
  assert (U : untouched ns d (fst (write_to_disk k crash name (FJson j) d))).
  { apply write_to_disk_untouched; apply H; cbn; auto. }
  destruct (snd (write_to_disk k crash name (FJson j) d)); [exact U|].
  apply (untouched_trans U). apply write_to_disk_untouched; apply H; cbn; auto.
Qed.

Lemma write_and_check_done k name j d : read_checked name (fst (write_and_check k None name j d)) = Some j.
Proof.
  unfold read_checked.
  change (write_and_check k None name j d)
    with (write_to_disk (k + 4) None (name ++ sfx_sum) (FSum j) (fst (write_to_disk k None name (FJson j) d))).
  rewrite (write_to_disk_done (k + 4)) by reflexivity.
  rewrite (write_to_disk_untouched [name] (k + 4) None (name ++ sfx_sum)).
  - rewrite write_to_disk_done by reflexivity. now rewrite json_eqb_refl.
  - intros [E|[]]. now apply (app_neq_self name sfx_sum).
  - intros [E|[]]. rewrite <- app_assoc in E. now apply (app_neq_self name (sfx_sum ++ sfx_tmp)).
  - now left.
Qed.

Definition notin (ms ns : list str) : bool := forallb (fun m => negb (existsb (str_eqb m) ns)) ms.

Lemma notin_spec {ms ns} : notin ms ns = true -> forall m, In m ms -> ~ In m ns.
Proof.
  intros H m Hm Hn. unfold notin in H. rewrite forallb_forall in H. specialize (H m Hm).
  apply Bool.negb_true_iff in H. rewrite <- Bool.not_true_iff_false in H. apply H.
  apply existsb_exists. exists m. split; [exact Hn|apply str_eqb_refl].
Qed.

(* the file names are constants: that they are apart is computed *)
Lemma names_apart w :
  notin (wfiles (slot_store (negb w)) ++ wfiles (slot_gglw (negb w))) (f_toggle :: slot_names w) = true /\
  notin (wfiles (slot_gglw w)) [slot_store w; slot_store w ++ sfx_sum] = true /\
  notin [f_toggle] (slot_names w) = true /\
  notin [f_last] (f_toggle :: slot_names w) = true.
Proof. destruct w; repeat split; reflexivity. Qed.

Lemma slot_write_untouched main k crash name j d :
  In name [slot_store (negb main); slot_gglw (negb main)] ->
  untouched (f_toggle :: slot_names main) d (fst (write_and_check k crash name j d)).
Proof.
  intros Hname. apply write_and_check_untouched. intros m Hm.
  apply (notin_spec (proj1 (names_apart main))), in_or_app.
  destruct Hname as [<-|[<-|[]]]; [now left|now right].
Qed.

(* the crash-safety step of C10: a flush that has not reached the flip (crash points 0..15, two write_and_check)
   leaves the selector and every file of the active slot as they were *)
Theorem flush_keeps_active s d c :
  c < 16 ->
  let main := fs_has f_toggle d in
  untouched (f_toggle :: slot_names main) d (fst (flush (Some c) s d)) /\ snd (flush (Some c) s d) = true.
Proof.
  intros Hc main. unfold flush. fold main. cbv zeta. destruct (N.lt_ge_cases c 8).
  - rewrite (write_and_check_crashes 0) by lia.
    split; [apply slot_write_untouched; now left|apply write_and_check_crashes; lia].
  - rewrite (write_and_check_miss 0), write_and_check_alive, (write_and_check_crashes 8) by lia.
    split; [|apply write_and_check_crashes; lia].
    eapply untouched_trans; apply slot_write_untouched; cbn; auto.
Qed.

Lemma fs_has_flip d : fs_has f_toggle (flip d) = negb (fs_has f_toggle d).
Proof.
  unfold flip, fs_has. destruct (fs_get f_toggle d) eqn:E.
  - now rewrite fs_get_del, str_eqb_refl.
  - now rewrite fs_get_put, str_eqb_refl.
Qed.

Lemma fs_get_flip_other n d : n <> f_toggle -> fs_get n (flip d) = fs_get n d.
Proof.
  intros H. apply str_eqb_neq in H. unfold flip. destruct (fs_has f_toggle d).
  - now rewrite fs_get_del, H.
  - now rewrite fs_get_put, H.
Qed.

Lemma untouched_flip ns d : ~ In f_toggle ns -> untouched ns d (flip d).
Proof. intros H n Hn. apply fs_get_flip_other. now intros ->. Qed.

(* the directory of a flush that has reached the flip: both files of the inactive slot written, the
   selector switched, last-persisted not yet touched *)
Definition written (s : core) (d : fs) : fs :=
  let w := negb (fs_has f_toggle d) in
  flip (fst (write_and_check 8 None (slot_gglw w) (snd (snapshot s))
               (fst (write_and_check 0 None (slot_store w) (fst (snapshot s)) d)))).

Lemma flush_none s d : flush None s d = (fs_put f_last FEmpty (written s d), false).
Proof. reflexivity. Qed.

Lemma flush_at_flip s d : flush (Some 16) s d = (written s d, true).
Proof. unfold flush. cbv zeta. now rewrite !write_and_check_miss by lia. Qed.

Lemma flush_beyond s d c : 16 < c -> flush (Some c) s d = flush None s d.
Proof.
  intros Hc. unfold flush. cbv zeta. rewrite !write_and_check_miss by lia.
  now rewrite (proj2 (N.eqb_neq c 16)) by lia.
Qed.

Lemma written_selects s d :
  let w := negb (fs_has f_toggle d) in
  fs_has f_toggle (written s d) = w /\
  read_checked (slot_store w) (written s d) = Some (fst (snapshot s)) /\
  read_checked (slot_gglw w) (written s d) = Some (snd (snapshot s)).
Proof.
  intros w. destruct (names_apart w) as (_ & A2 & A3 & _). unfold written. fold w.
  set (d1 := fst (write_and_check 0 None (slot_store w) (fst (snapshot s)) d)).
  set (d2 := fst (write_and_check 8 None (slot_gglw w) (snd (snapshot s)) d1)).
  assert (F : untouched (slot_names w) d2 (flip d2)) by (apply untouched_flip, (notin_spec A3); now left).
  rewrite fs_has_flip, !(read_checked_ext F) by (cbn; auto 6). repeat split.
  - unfold w. f_equal.
    assert (T : untouched (f_toggle :: slot_names (fs_has f_toggle d)) d d2)
      by (apply (@untouched_trans _ _ d1); apply slot_write_untouched; cbn; auto).
    apply (fs_has_ext T). now left.
  - assert (G : untouched [slot_store w; slot_store w ++ sfx_sum] d1 d2)
      by (apply write_and_check_untouched; intros m Hm; now apply (notin_spec A2)).
    rewrite (read_checked_ext G) by (cbn; auto). apply write_and_check_done.
  - apply write_and_check_done.
Qed.

Lemma slot_ext w d d' :
  untouched (f_toggle :: slot_names w) d d' ->
  fs_has f_toggle d' = fs_has f_toggle d /\
  read_checked (slot_store w) d' = read_checked (slot_store w) d /\
  read_checked (slot_gglw w) d' = read_checked (slot_gglw w) d.
Proof. intros U. rewrite (fs_has_ext U), !(read_checked_ext U) by (cbn; auto 7). auto. Qed.

Theorem flush_completes s d :
  let d' := fst (flush None s d) in
  let w := negb (fs_has f_toggle d) in
  snd (flush None s d) = false /\
  fs_has f_toggle d' = w /\
  read_checked (slot_store w) d' = Some (fst (snapshot s)) /\
  read_checked (slot_gglw w) d' = Some (snd (snapshot s)).
Proof.
  intros d' w. subst d'. rewrite flush_none. cbn [fst snd]. split; [reflexivity|].
  destruct (slot_ext w (written s d) (fs_put f_last FEmpty (written s d))) as (-> & -> & ->); [|apply written_selects].
  apply untouched_put, (notin_spec (proj2 (proj2 (proj2 (names_apart w))))). now left.
Qed.

Lemma persisted_roundtrip n : node_ok n -> dec_persisted (enc_persisted n) = Some n.
Proof. intros H. unfold enc_persisted, dec_persisted. cbn. now apply node_roundtrip. Qed.

Lemma export_roundtrip d : node_ok (strip_sys s_SYS d) -> dec_persisted (enc_export d) = Some (strip_sys s_SYS d).
Proof.
  intros H. pose proof (persisted_roundtrip _ H) as P. unfold enc_export. revert P.
  destruct (strip_sys s_SYS d) as [[e|] [|c cs]]; cbn [nkids nval]; intros P; try exact P.
  (* an emptied root: {"t":{}} reads as the empty node, as {} does *)
  all: destruct (nkids d); exact P.
Qed.

Lemma gglw_roundtrip gg lw : dec_gglw (enc_gglw gg lw) = Some (gg, lw).
Proof.
  unfold enc_gglw, dec_gglw. cbn.
  now rewrite strs_roundtrip, kvps_roundtrip.
Qed.

Lemma load_selected d l :
  node_ok (strip_sys s_SYS (data l)) ->
  read_checked (slot_store (fs_has f_toggle d)) d = Some (fst (snapshot l)) ->
  read_checked (slot_gglw (fs_has f_toggle d)) d = Some (snd (snapshot l)) ->
  load_v3 d = Some (apply_gglw (core_of (strip_sys s_SYS (data l))) (all_grave_goods l) (all_last_wills l), d).
Proof.
  intros Hok Hs Hg. unfold load_v3. rewrite Hs, Hg. unfold snapshot. cbn [fst snd bind].
  now rewrite (export_roundtrip _ Hok), gglw_roundtrip.
Qed.

(* what was flushed is what is loaded (v3, either toggle state, any directory content before) *)
Theorem load_after_flush s d :
  node_ok (strip_sys s_SYS (data s)) ->
  let d' := fst (flush None s d) in
  load_v3 d' =
  Some (apply_gglw (core_of (strip_sys s_SYS (data s))) (all_grave_goods s) (all_last_wills s), d').
Proof.
  intros Hok d'. destruct (flush_completes s d) as (_ & Ht & Hs & Hg). fold d' in Ht, Hs, Hg.
  apply load_selected; [exact Hok|now rewrite Ht..].
Qed.

Theorem load_after_crash s d c :
  c < 16 ->
  let d' := fst (flush (Some c) s d) in
  let main := fs_has f_toggle d in
  fs_has f_toggle d' = main /\
  read_checked (slot_store main) d' = read_checked (slot_store main) d /\
  read_checked (slot_gglw main) d' = read_checked (slot_gglw main) d.
Proof. intros Hc d' main. now apply slot_ext, flush_keeps_active. Qed.

(* C10, one step: once a flush has completed (the active slot holds a readable store), a process that
   dies anywhere before the selector flip of a later flush restarts with exactly the state a restart
   without that flush would have given -- the last completed snapshot, store and registrations from
   the same slot; the half-written files of the other slot are never looked at *)
Theorem crash_recovers_last_completed s d c n :
  c < 16 ->
  bind (read_checked (slot_store (fs_has f_toggle d)) d) dec_persisted = Some n ->
  option_map fst (load_v3 (fst (flush (Some c) s d))) = option_map fst (load_v3 d).
Proof.
  intros Hc Hn. destruct (load_after_crash s d c Hc) as (Ht & Hs & Hg).
  unfold load_v3. rewrite Ht, Hs, Hg, Hn.
  destruct (bind (read_checked (slot_gglw (fs_has f_toggle d)) d) dec_gglw) as [[gg lw]|]; reflexivity.
Qed.

(* a process that dies after the flip (before last-persisted is touched) has completed the flush *)
Theorem crash_after_flip_is_complete s d :
  let d' := fst (flush (Some 16) s d) in
  let w := negb (fs_has f_toggle d) in
  fs_has f_toggle d' = w /\
  read_checked (slot_store w) d' = Some (fst (snapshot s)) /\
  read_checked (slot_gglw w) d' = Some (snd (snapshot s)).
Proof. intros d' w. subst d'. rewrite flush_at_flip. apply written_selects. Qed.
