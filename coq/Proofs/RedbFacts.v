(* C18, what needs no history.  The map specification read at one path.  The writer's schedule: however many actions each
   wake-up finds in the channel, the disk holds the result of a prefix of the action sequence, in order (disk_is_prefix),
   all of it once the queue has drained (clean_stop_is_all), and a non-empty queue gets shorter (wake_progress).  The
   witness of known finding F13.  [client_of_str] reads back what [client_str] writes, for every id below 256. *)
From Coq Require Import Lia List Arith PeanoNat.
Import ListNotations.
From WB Require Import Base.Str Base.StrFacts Base.Json Model.Key Model.Consts Model.Store Model.Match Model.Entry Model.Core Model.Persist Model.Redb
  Spec.MapSpec.

Lemma m_set_eq m p e : m_set m p e p = Some e.
Proof. unfold m_set. now rewrite path_eqb_refl. Qed.
Lemma m_set_neq m p e q : p <> q -> m_set m p e q = m q.
Proof. unfold m_set. now destruct (path_eqb_spec p q). Qed.
Lemma m_del_eq m p : m_del m p p = None.
Proof. unfold m_del. now rewrite path_eqb_refl. Qed.
Lemma m_del_neq m p q : p <> q -> m_del m p q = m q.
Proof. unfold m_del. now destruct (path_eqb_spec p q). Qed.

Lemma apply_all_cons t a l : apply_all t (a :: l) = apply_all (apply_action t a) l.
Proof. reflexivity. Qed.
Lemma apply_all_app t a b : apply_all t (a ++ b) = apply_all (apply_all t a) b.
Proof. apply fold_left_app. Qed.

Local Open Scope nat_scope.

Lemma take_batch_split n : forall q b r, take_batch n q = (b, r) -> q = b ++ r.
Proof.
  induction n as [|n IH]; intros q b r H; cbn in H.
  - injection H as <- <-. reflexivity.
  - destruct q as [|a q]; [injection H as <- <-; reflexivity|].
    destruct (batchable a); [|injection H as <- <-; reflexivity].
    destruct (take_batch n q) as [b' r'] eqn:E. injection H as <- <-. cbn. f_equal. now apply IH.
Qed.

Lemma wake_split n t q : exists a, q = a ++ snd (wake n (t, q)) /\ fst (wake n (t, q)) = apply_all t a.
Proof.
  unfold wake. cbn [snd fst]. destruct q as [|x q]; [now exists []|]. destruct (batchable x); [|now exists [x]].
  destruct (take_batch n q) as [b r] eqn:E. exists (x :: b). cbn [fst snd app]. now rewrite (take_batch_split n q b r E).
Qed.

Lemma wakes_split avails : forall t q,
  exists a, q = a ++ snd (wakes avails (t, q)) /\ fst (wakes avails (t, q)) = apply_all t a.
Proof.
  induction avails as [|n ns IH]; intros t q; cbn [wakes]; [now exists []|].
  destruct (wake_split n t q) as (a1 & Hq & Hf). destruct (wake n (t, q)) as [t1 q1]. cbn [fst snd] in Hq, Hf. subst t1.
  destruct (IH (apply_all t a1) q1) as (a2 & Hq2 & Hf2). exists (a1 ++ a2). now rewrite apply_all_app, <- app_assoc, <- Hq2.
Qed.

(* C18.  [avails]: how many actions each wake-up finds in the channel, which is all the scheduler decides. *)
Theorem disk_is_prefix avails : forall t q,
  exists j, j <= length q /\ fst (wakes avails (t, q)) = apply_all t (firstn j q) /\ snd (wakes avails (t, q)) = skipn j q.
Proof.
  intros t q. destruct (wakes_split avails t q) as (a & Hq & ->). set (r := snd (wakes avails (t, q))) in *.
  exists (length a). rewrite Hq, app_length, firstn_app, skipn_app, firstn_all, skipn_all, Nat.sub_diag. cbn [firstn skipn].
  rewrite app_nil_r. repeat split. lia.
Qed.

Theorem clean_stop_is_all avails t q :
  snd (wakes avails (t, q)) = [] -> fst (wakes avails (t, q)) = apply_all t q.
Proof. intros He. destruct (wakes_split avails t q) as (a & Hq & ->). rewrite He, app_nil_r in Hq. now subst a. Qed.

Theorem wake_progress n t a q : length (snd (wake n (t, a :: q))) < length (a :: q).
Proof.
  unfold wake. cbn [snd fst]. destruct (batchable a); [|cbn; lia].
  destruct (take_batch n q) as [b r] eqn:E. pose proof (take_batch_split n q b r E) as ->.
  cbn [snd length]. rewrite app_length. lia.
Qed.

Local Close Scope nat_scope.
Local Open Scope N_scope.

(* known finding F13: the persisted CAS entry carries the version of the request, and the forced insert of the loader
   turns every CAS entry into version 1: after two accepted csets the server holds version 2, a reload gives 1 *)
Theorem cas_version_refuted :
  let os := [OCSet 1 [107] (JBool true) 0 false; OCSet 1 [107] (JBool false) 1 false] in
  let '(s, acts) := run_actions init os in
  lookup (data s) [[107]] = Some (Cas (JBool false) 2) /\
  lookup (data (recover (apply_all t_empty acts))) [[107]] = Some (Cas (JBool false) 1).
Proof. vm_compute. split; reflexivity. Qed.

(* values and kinds do come back: a non-vacuity check of the whole pipeline, with a registration applied on load *)
Example recover_example :
  let gg := topic [Consts.s_SYS; Consts.s_clients; client_str 1; Consts.s_graveGoods] in
  let os := [OSet 1 [97] (JBool true) false; OSet 1 [103;47;49] JNull false; OCSet 1 [99] JNull 0 false;
             OSet 1 gg (JArr [JStr [103;47;35]]) false; ODelete 1 [97]; OSet 1 [98] (JBool false) false] in
  let '(s, acts) := run_actions init os in
  acts = [AUpd [97] (Plain (JBool true)); AUpd [103;47;49] (Plain JNull); AUpd [99] (Cas JNull 0); AGG 1 (Some [[103;47;35]]);
          ADel [97]; AUpd [98] (Plain (JBool false))] /\
  user_all (recover (apply_all t_empty acts)) = [([[99]], Cas JNull 1); ([[98]], Plain (JBool false))] /\
  user_all (recover (apply_all t_empty (firstn 3%nat acts))) = [([[97]], Plain (JBool true)); ([[103]; [49]], Plain JNull); ([[99]], Cas JNull 1)].
Proof. vm_compute. repeat split; reflexivity. Qed.

(* [client_str] writes an id as two hex digits: every id below 256 is recovered from its key *)
Lemma hexval_hexdig a : a < 16 -> hexval (hexdig a) = Some a.
Proof.
  intros H. unfold hexval, hexdig. destruct (N.ltb_spec a 10).
  - destruct (N.leb_spec 48 (48 + a)), (N.leb_spec (48 + a) 57); cbn [andb]; try lia. f_equal. lia.
  - destruct (N.leb_spec 48 (87 + a)), (N.leb_spec (87 + a) 57); cbn [andb]; try lia;
      destruct (N.leb_spec 97 (87 + a)), (N.leb_spec (87 + a) 102); cbn [andb]; try lia; f_equal; lia.
Qed.

Lemma small_inv c : c < 256 -> client_of_str (client_str c) = Some c.
Proof.
  intros H. unfold client_str. destruct (N.eqb_spec c 0) as [->|Hne]; [reflexivity|].
  assert (E : forall x, client_of_str (uuid_prefix ++ x) =
                match x with [h; l] => match hexval h, hexval l with Some a, Some b => Some (16 * a + b) | _, _ => None end | _ => None end)
    by reflexivity.
  rewrite E, !hexval_hexdig by (try apply N.mod_lt; try apply N.div_lt_upper_bound; lia).
  f_equal. symmetry. now apply N.div_mod.
Qed.

Example client_of_str_inverts :
  forallb (fun c => match client_of_str (client_str c) with Some c' => N.eqb c c' | None => false end)
          (map N.of_nat (seq 0 256)) = true.
Proof.
  apply forallb_forall. intros c Hc. apply in_map_iff in Hc as (n & <- & Hn). apply in_seq in Hn.
  rewrite small_inv by lia. apply N.eqb_refl.
Qed.
