(* C18: the load.  What [recover] makes of tables that follow the store (recover_spec): the user keys come back (CAS
   versions as 1: F13), nothing under $SYS/ does; every pattern of the grave-goods table is buried, every entry of the
   last-will table is written, clients in id order.  [TabOK] is the shape of the tables that every queued action keeps
   (history_invariants); with it, from the first request to the next start, what is recovered is a function of the
   store at that point (recover_after_history). *)
From Coq Require Import Lia List.
Import ListNotations.
From WB Require Import Base.ListFacts Base.Str Base.StrFacts Base.Json Model.Key Model.Consts Model.Store Model.Match Model.Subs Model.Entry
  Model.Core Model.Persist Model.Redb Model.Sync Spec.MapSpec Proofs.GoodNames Proofs.CoreFacts Proofs.LenFacts Proofs.C01Proof Proofs.StreamProof
  Proofs.SessionEnd Proofs.StreamAll Proofs.Writes Proofs.RunAt Proofs.SyncFacts Proofs.SysKeep Proofs.RedbFacts Proofs.RedbTrack Proofs.RedbSession Proofs.RedbRegs.
Local Open Scope N_scope.

Lemma fold_nested {A B C} (f : A -> C -> A) (l : list (B * list C)) : forall a,
  fold_left (fun a bc => fold_left f (snd bc) a) l a = fold_left f (flat_map snd l) a.
Proof. induction l as [|[b cs] l IH]; intros a; [reflexivity|]. cbn [fold_left flat_map snd]. now rewrite fold_left_app, IH. Qed.

Definition reloaded (e : entry) : entry := match e with Plain v => Plain v | Cas v _ => Cas v 1 end.

Definition restore (rows : list (str * entry)) (s0 : core) : core :=
  fold_left (fun s kv => fst (do_insert s 0 (fst kv) (snd kv) true)) rows s0.

Definition RowsOK (rows : list (str * entry)) : Prop :=
  NoDup (map fst rows) /\
  Forall (fun kv => exists p, parse_segments (fst kv) = Ok p /\ starts_with s_SYS_prefix (fst kv) = false /\ fst kv <> []) rows.

Lemma forced_insert_absent s k e p :
  Inv s -> parse_segments k = Ok p -> starts_with s_SYS_prefix k = false -> k <> [] -> abs s p = None ->
  Inv (fst (do_insert s 0 k e true)) /\ meq (abs (fst (do_insert s 0 k e true))) (m_set (abs s) p (reloaded e)).
Proof.
  intros HI Hp Hpre Hne Ha. destruct (do_insert_abs s 0 k e true HI) as (HI' & Hm). split; [exact HI'|].
  unfold point_write, guarded, point, ins_upd, special_value_bad in Hm. rewrite (guard_internal k Hne), Hp, Hpre, Ha in Hm.
  destruct e as [v|v n]; [exact Hm|]. cbn [decide] in Hm. now rewrite Bool.orb_true_r in Hm.
Qed.

Lemma restore_keyed rows : forall s0,
  Inv s0 -> RowsOK rows ->
  (forall kv p, In kv rows -> parse_segments (fst kv) = Ok p -> abs s0 p = None) ->
  Inv (restore rows s0) /\
  forall k p, parse_segments k = Ok p ->
    abs (restore rows s0) p = match kv_get k rows with Some e => Some (reloaded e) | None => abs s0 p end.
Proof.
  induction rows as [|[k e] rows IH]; intros s0 HI (Hnd & Hall) Habs; [split; [exact HI|reflexivity]|].
  cbn [map fst] in Hnd. apply NoDup_cons_iff in Hnd as (Hnin & Hnd). apply Forall_cons_iff in Hall as ((p & Hp & Hpre & Hne0) & Hall).
  cbn [fst] in Hp, Hpre, Hne0.
  assert (Ha : abs s0 p = None) by (apply (Habs (k, e) p); [now left|exact Hp]).
  destruct (forced_insert_absent s0 k e p HI Hp Hpre Hne0 Ha) as (HI1 & Hm1).
  unfold restore. cbn [fold_left fst snd]. fold (restore rows (fst (do_insert s0 0 k e true))).
  destruct (IH (fst (do_insert s0 0 k e true)) HI1 (conj Hnd Hall)) as (HI2 & Hk).
  { intros [k' e'] p' Hin Hp'. cbn [fst] in Hp'. rewrite Hm1, m_set_neq; [apply (Habs (k', e') p'); [now right|exact Hp']|].
    intros <-. apply Hnin. rewrite (parse_inj k k' p Hp Hp'). apply in_map_iff. exists (k', e'). auto. }
  split; [exact HI2|]. intros k2 p2 Hp2. rewrite (Hk k2 p2 Hp2). cbn [kv_get].
  destruct (str_eqb_spec k2 k) as [->|Hne].
  - rewrite Hp in Hp2. injection Hp2 as <-. now rewrite (kv_get_notin k rows Hnin), Hm1, m_set_eq.
  - destruct (kv_get k2 rows); [reflexivity|]. rewrite Hm1, m_set_neq; [reflexivity|].
    intros <-. exact (Hne (parse_inj k2 k p Hp2 Hp)).
Qed.

Definition m_user (m : mstate) : mstate :=
  fun q => match q with
           | p0 :: _ => if str_eqb p0 s_SYS then None else option_map reloaded (m q)
           | [] => None
           end.

Lemma m_user_at m q : m_user m q = if is_user q then option_map reloaded (m q) else None.
Proof. destruct q as [|p0 q]; [reflexivity|]. cbn [m_user is_user]. now destruct (str_eqb p0 s_SYS). Qed.

Lemma reloaded_row e : reloaded (row_of e) = reloaded e.
Proof. now destruct e. Qed.

Theorem restore_spec s t :
  Inv s -> tracks s t -> RowsOK (t_v2 t) -> abs s [s_SYS] = None ->
  Inv (restore (t_v2 t) init) /\ meq (abs (restore (t_v2 t) init)) (m_user (abs s)).
Proof.
  intros HI HT HR Hroot.
  destruct (restore_keyed (t_v2 t) init Inv_init HR) as (HI' & Hk); [intros; apply abs_init|].
  split; [exact HI'|]. intros q.
  (* a path that holds something, before or after, is the path of its key: there the row decides *)
  assert (Hq : parse_segments (key_of q) = Ok q -> abs (restore (t_v2 t) init) q = m_user (abs s) q).
  { intros Hp. rewrite (Hk _ q Hp), (abs_init q), m_user_at. unfold m_empty.
    destruct (kv_get (key_of q) (t_v2 t)) as [er|] eqn:Eg.
    - destruct HR as (_ & Hall). rewrite Forall_forall in Hall. destruct (Hall _ (kv_get_In _ _ _ Eg)) as (p' & _ & Hpre & _).
      cbn [fst] in Hpre. rewrite (HT _ q Hp Hpre) in Eg.
      destruct (nonprefixed_path _ q Hp Hpre) as [-> | ->]; [|rewrite Hroot in Eg; discriminate].
      destruct (abs s q) as [es|]; [|discriminate]. injection Eg as <-. cbn [option_map]. now rewrite reloaded_row.
    - destruct (is_user q) eqn:Eu; [|reflexivity]. rewrite (HT _ q Hp (user_key_nonprefixed _ _ Hp Eu)) in Eg.
      now destruct (abs s q). }
  destruct (abs (restore (t_v2 t) init) q) as [e1|] eqn:E1; [exact (Hq (key_of_parse _ q e1 HI' E1))|].
  destruct (abs s q) as [es|] eqn:Es; [exact (Hq (key_of_parse s q es HI Es))|]. rewrite m_user_at, Es. now destruct (is_user q).
Qed.

Definition will_path (kv : str * json) : option (list str) :=
  match fst kv with
  | [] => None
  | _ => match parse_segments (fst kv) with
         | Ok p => if special_value_bad (fst kv) (snd kv) then None else Some p
         | Err _ => None
         end
  end.

Definition m_bury (m : mstate) (gs : list str) : mstate := fold_left (fun m g => m_pdel m (kseg_parse g)) gs m.
Definition m_will (m : mstate) (kv : str * json) : mstate :=
  match will_path kv with Some p => m_set m p (Plain (snd kv)) | None => m end.
Definition m_wills (m : mstate) (kvs : list (str * json)) : mstate := fold_left m_will kvs m.

(* a forced plain set by the server is refused only for its key or its special value *)
Lemma will_write m kv : point_write 0 (fst kv) (ins_upd (fst kv) (Plain (snd kv)) true) m = m_will m kv.
Proof.
  destruct kv as [[|x k] v]; [reflexivity|]. unfold point_write, guarded, point, ins_upd, m_will, will_path.
  cbn [fst snd entry_val check_read_only N.eqb]. destruct (parse_segments (x :: k)) as [p|]; [|reflexivity].
  destruct (special_value_bad (x :: k) v); [reflexivity|]. now destruct (m p) as [[c|c n]|].
Qed.

Lemma fold_abs {A} (f : core -> A -> core) (g : mstate -> A -> mstate) (P : A -> Prop) :
  (forall s a, Inv s -> P a -> Inv (f s a) /\ meq (abs (f s a)) (g (abs s) a)) ->
  (forall a b x, meq a b -> meq (g a x) (g b x)) ->
  forall l s m, Inv s -> meq (abs s) m -> Forall P l ->
  Inv (fold_left f l s) /\ meq (abs (fold_left f l s)) (fold_left g l m).
Proof.
  intros Hf Hg. induction l as [|a l IH]; intros s m HI Hm Hl; [now split|]. apply Forall_cons_iff in Hl as (Ha & Hl).
  destruct (Hf s a HI Ha) as (HI' & Hm'). apply IH; try assumption. intros q. rewrite Hm'. now apply Hg.
Qed.

Definition all_pats (t : tables) : list str := flat_map snd (t_gg t).
Definition all_wills (t : tables) : list (str * json) := flat_map snd (t_lw t).

Theorem recover_spec s t :
  Inv s -> tracks s t -> RowsOK (t_v2 t) -> abs s [s_SYS] = None ->
  Forall (fun g => wf_pat (kseg_parse g) = true) (all_pats t) ->
  Inv (recover t) /\ meq (abs (recover t)) (m_wills (m_bury (m_user (abs s)) (all_pats t)) (all_wills t)).
Proof.
  intros HI HT HR Hroot Hwf. destruct (restore_spec s t HI HT HR Hroot) as (HI0 & Hm0).
  unfold recover. fold (restore (t_v2 t) init). rewrite !fold_nested. fold (all_pats t) (all_wills t).
  destruct (fold_abs (fun s g => fst (do_pdelete s 0 true g)) (fun m g => m_pdel m (kseg_parse g)) (fun g => wf_pat (kseg_parse g) = true))
    with (l := all_pats t) (s := restore (t_v2 t) init) (m := m_user (abs s)) as (HI1 & Hm1); try assumption.
  - intros s1 g HI' Hg. pose proof (do_pdelete_abs s1 0 true g HI') as H. now rewrite (reach_bad_wf _ _ Hg) in H.
  - intros a b g H q. unfold m_pdel. now rewrite H.
  - apply (fold_abs (fun s kv => fst (do_insert s 0 (fst kv) (Plain (snd kv)) true)) m_will (fun _ => True)); try assumption.
    + intros s1 kv HI' _. rewrite <- will_write. apply do_insert_abs, HI'.
    + intros a b kv H q. unfold m_will. destruct (will_path kv); [unfold m_set; now rewrite H|apply H].
    + apply Forall_forall. intros; exact I.
Qed.

Lemma parse_empty : parse_segments [] = Ok [[]].
Proof. reflexivity. Qed.

Lemma empty_path_key k : parse_segments k = Ok [[]] -> k = [].
Proof. exact (key_of_path k [[]]). Qed.

Theorem step_keeps_empty s o :
  Inv s -> redb_op o -> o_res (snd (step s o)) <> RCrash -> abs s [[]] = None -> abs (fst (step s o)) [[]] = None.
Proof.
  intros HI Ho Hnc H0. refine (proj2 (step_closed [[]] s o _ _ HI Ho Hnc H0)).
  - intros c k _ Hp. now rewrite (empty_path_key k Hp).
  - intros [H|(x & [H|H])]; discriminate.
Qed.

Definition act_ok (a : raction) : Prop :=
  match a with
  | AUpd k _ => (exists p, parse_segments k = Ok p) /\ starts_with s_SYS_prefix k = false /\ k <> []
  | AGG c (Some _) | ALW c (Some _) => small c
  | AClear => False
  | _ => True
  end.

Fixpoint lb {V} (b : N) (l : list (cid * V)) : Prop :=
  match l with [] => True | (c, _) :: r => b < c /\ lb c r end.

Lemma lb_weaken {V} b b' (l : list (cid * V)) : b' <= b -> lb b l -> lb b' l.
Proof. destruct l as [|[c v] r]; [auto|]. cbn [lb]. intros H (H1 & H2). split; [lia|exact H2]. Qed.

Lemma lb_get_none {V} b c (l : list (cid * V)) : lb b l -> c <= b -> c_get c l = None.
Proof.
  revert b. induction l as [|[c' v] r IH]; intros b Hl Hc; [reflexivity|]. cbn [lb] in Hl. destruct Hl as (H1 & H2).
  cbn [c_get]. destruct (N.eqb_spec c c'); [lia|]. apply (IH c'); [exact H2|lia].
Qed.

Lemma lb_set {V} b c (v : V) l : b < c -> lb b l -> lb b (c_set c v l).
Proof.
  revert b. induction l as [|[c' v'] r IH]; intros b Hb Hl; cbn [c_set lb]; [auto|].
  cbn [lb] in Hl. destruct Hl as (H1 & H2).
  destruct (N.eqb_spec c c') as [->|Hne]; [cbn [lb]; auto|].
  destruct (N.ltb_spec c c'); cbn [lb]; [auto|]. split; [exact H1|]. apply IH; [lia|exact H2].
Qed.

Lemma lb_del {V} b c (l : list (cid * V)) : lb b l -> lb b (c_del c l).
Proof.
  unfold c_del. revert b. induction l as [|[c' v'] r IH]; intros b Hl; [exact I|]. cbn [lb] in Hl. destruct Hl as (H1 & H2).
  cbn [filter fst]. destruct (negb (N.eqb c c')); [cbn [lb]; split; [exact H1|now apply IH]|].
  apply IH. apply (lb_weaken c' b); [lia|exact H2].
Qed.

Definition keys_small {V} (l : list (cid * V)) : Prop := Forall (fun cv => fst cv < 256) l.

Lemma keys_small_set {V} c (v : V) l : c < 256 -> keys_small l -> keys_small (c_set c v l).
Proof.
  intros Hc. induction l as [|[c' v'] r IH]; intros Hl; cbn [c_set]; [repeat constructor; exact Hc|].
  apply Forall_cons_iff in Hl as (H1 & H2).
  destruct (N.eqb c c'); [constructor; assumption|]. destruct (N.ltb c c'); constructor; try assumption.
  - constructor; assumption.
  - now apply IH.
Qed.
Lemma keys_small_del {V} c (l : list (cid * V)) : keys_small l -> keys_small (c_del c l).
Proof. apply Forall_filter. Qed.

Definition TabOK (t : tables) : Prop :=
  RowsOK (t_v2 t) /\ lb 0 (t_gg t) /\ keys_small (t_gg t) /\ lb 0 (t_lw t) /\ keys_small (t_lw t).

Lemma apply_action_ok t a : TabOK t -> act_ok a -> TabOK (apply_action t a).
Proof.
  intros ((Hnd & Hall) & Lg & Sg & Ll & Sl) Ha. destruct a as [k e|k|c [g|]|c [l|]|]; cbn [apply_action]; unfold TabOK; cbn [t_v2 t_gg t_lw].
  - destruct Ha as ((p & Hp) & Hpre & Hne). repeat split; try assumption; [now apply kv_set_nodup|].
    apply Forall_forall. intros x Hx. apply kv_set_in in Hx as [->|Hx]; [cbn [fst]; eauto|]. rewrite Forall_forall in Hall. now apply Hall.
  - repeat split; try assumption.
    + now apply NoDup_map_filter.
    + now apply Forall_filter.
  - destruct Ha as (H0 & H1). repeat split; try assumption; [apply lb_set; [lia|exact Lg]|now apply keys_small_set].
  - repeat split; try assumption; [now apply lb_del|now apply keys_small_del].
  - destruct Ha as (H0 & H1). repeat split; try assumption; [apply lb_set; [lia|exact Ll]|now apply keys_small_set].
  - repeat split; try assumption; [now apply lb_del|now apply keys_small_del].
  - contradiction.
Qed.

Lemma apply_all_ok acts : forall t, TabOK t -> Forall act_ok acts -> TabOK (apply_all t acts).
Proof.
  induction acts as [|a acts IH]; intros t Ht Ha; [exact Ht|]. apply Forall_cons_iff in Ha as (Ha & Has).
  rewrite apply_all_cons. apply IH; [now apply apply_action_ok|exact Has].
Qed.

Lemma TabOK_empty : TabOK t_empty.
Proof. repeat split; try constructor. Qed.

Lemma reg_del_ok k : Forall act_ok (reg_del k).
Proof. apply Forall_forall. intros a Ha. apply reg_del_shape in Ha as (r & a0 & x & c & _ & _ & ->). now destruct r. Qed.

Lemma del_action_ok c k : Forall act_ok (del_action c k).
Proof.
  destruct (starts_with s_SYS_prefix k) eqn:E; [|rewrite (del_action_user c k E); repeat constructor].
  rewrite (del_action_sys c k E). destruct (N.eqb c 0); [constructor|apply reg_del_ok].
Qed.

Lemma upd_action_ok s c k e f :
  small c -> o_res (snd (do_insert s c k e f)) = RUnit -> Forall act_ok (upd_action (Some c) k e).
Proof.
  intros Hs Hres. apply Forall_forall. intros a Ha. apply upd_action_inv in Ha as [(Epre & ->)|(_ & r & _ & ->)].
  - rewrite do_insert_result in Hres. destruct (check_read_only k c) eqn:Eg; [discriminate|].
    destruct (parse_segments k) as [p|] eqn:Hp; [|discriminate]. split; [eauto|]. split; [exact Epre|]. intros ->. discriminate.
  - destruct r; cbn [reg_act act_ok]; [destruct (reg_dec GG e)|destruct (reg_dec LW e)]; (exact Hs || exact I).
Qed.

Lemma actions_ok s o :
  reg_op s o -> Inv (fst (step s o)) -> abs (fst (step s o)) [[]] = None -> Forall act_ok (actions_of s o).
Proof.
  intros Ho2 HI' He'.
  destruct o; try contradiction; try (rewrite actions_of_silent by exact I; constructor); unfold actions_of.
  - cbn [step] in *. destruct (o_res (snd (do_insert s c k (Plain v) force))) eqn:Er; try constructor. exact (upd_action_ok s c k (Plain v) force Ho2 Er).
  - cbn [step] in *. destruct (o_res (snd (do_insert s c k (Cas v ver) force))) eqn:Er; try constructor. exact (upd_action_ok s c k (Cas v ver) force Ho2 Er).
  - destruct (o_res (snd (step s (ODelete c k)))); try constructor. apply del_action_ok.
  - destruct (o_res (snd (step s (OPDelete c p)))); try constructor. apply Forall_flat_map, Forall_forall. intros kv _. apply del_action_ok.
  - destruct (o_res (snd (step s (ODisconnected c)))); try constructor. set (s' := fst (step s (ODisconnected c))) in *.
    rewrite !Forall_app. repeat split; [| | |repeat constructor].
    + apply Forall_flat_map, Forall_forall. intros m _. destruct (lookup (data s') (fst m)); repeat constructor.
    + apply Forall_removed_regs, reg_del_ok.
    + apply Forall_forall. intros a Ha. apply (In_written s s' a HI') in Ha as (q & e & Hu & Hl & _ & ->).
      pose proof (key_of_parse s' q e HI' Hl) as Hp. split; [eauto|]. split; [exact (user_key_nonprefixed _ _ Hp Hu)|].
      (* the empty key: no request creates it *)
      intros E. rewrite E, parse_empty in Hp. injection Hp as <-. congruence.
Qed.

Definition regs_from {V} (f : cid -> option V) (a n : nat) : list (cid * V) :=
  flat_map (fun i => match f (N.of_nat i) with Some v => [(N.of_nat i, v)] | None => [] end) (seq a n).
(* the ids 1 to 255: the [small] ones *)
Definition regs {V} (f : cid -> option V) : list (cid * V) := regs_from f 1 255.

Lemma table_is_regs_from {V} (f : cid -> option V) n : forall a (l : list (cid * V)),
  lb (N.of_nat a) l -> Forall (fun cv => fst cv < N.of_nat (S a + n)) l ->
  (forall c, N.of_nat a < c < N.of_nat (S a + n) -> c_get c l = f c) -> l = regs_from f (S a) n.
Proof.
  induction n as [|n IH]; intros a l Hl Hs Hf.
  - destruct l as [|[c v] r]; [reflexivity|]. apply Forall_cons_iff in Hs as (Hs & _). destruct Hl as (Hl & _). cbn [fst] in Hs. lia.
  - unfold regs_from. cbn [seq flat_map]. fold (regs_from f (S (S a)) n). rewrite <- (Hf (N.of_nat (S a))) by lia.
    assert (Hrest : forall l', lb (N.of_nat (S a)) l' -> Forall (fun cv => fst cv < N.of_nat (S a + S n)) l' ->
              (forall c, N.of_nat (S a) < c -> c_get c l' = c_get c l) -> l' = regs_from f (S (S a)) n).
    { intros l' Hl' Hs' He. apply IH; [exact Hl'|eapply Forall_impl; [|exact Hs']; cbn; intros; lia|].
      intros c Hc. rewrite He by lia. apply Hf. lia. }
    destruct l as [|[c v] r]; [apply Hrest; [exact I|constructor|reflexivity]|]. destruct Hl as (Hc & Hl). cbn [c_get].
    destruct (N.eqb_spec (N.of_nat (S a)) c) as [<-|Hne]; cbn [app].
    + f_equal. apply Forall_cons_iff in Hs as (_ & Hs). apply Hrest; [exact Hl|exact Hs|].
      intros c Hc'. cbn [c_get]. destruct (N.eqb_spec c (N.of_nat (S a))); [lia|reflexivity].
    + rewrite (lb_get_none c _ r Hl) by lia. apply Hrest; [cbn [lb]; split; [lia|exact Hl]|exact Hs|reflexivity].
Qed.

Lemma table_is_regs {V} (l : list (cid * V)) (f : cid -> option V) :
  lb 0 l -> keys_small l -> (forall c, small c -> c_get c l = f c) -> l = regs f.
Proof. intros Hl Hs Hf. apply (table_is_regs_from f 255 0); [exact Hl|exact Hs|]. intros c Hc. apply Hf. split; lia. Qed.

(* the hypothesis [LenInv s], which C18 states, is not needed *)
Theorem history_invariants os : forall s t,
  Inv s -> LenInv s -> tracks s t -> RegTracks s t -> TabOK t -> abs s [s_SYS] = None -> abs s [[]] = None ->
  reg_hist s os -> no_crash_run s os ->
  let s' := final s os in let t' := apply_all t (any_actions s os) in
  Inv s' /\ tracks s' t' /\ RegTracks s' t' /\ TabOK t' /\ abs s' [s_SYS] = None.
Proof.
  intros s t HI _ HT HR HK Hr He Ho Hnc. cbv zeta.
  apply (actions_fold (fun s t os => (Inv s /\ tracks s t /\ RegTracks s t /\ TabOK t /\ abs s [s_SYS] = None) /\
                                     abs s [[]] = None /\ reg_hist s os /\ no_crash_run s os)); [|tauto].
  clear. intros s t o os ((HI & HT & HR & HK & Hr) & He & (Ho1 & Ho2 & Hos) & Hc & Hnc).
  destruct (track_any_step s t o HI HT Hr Ho1 Hc) as (HI' & HT' & Hr').
  pose proof (reg_step s t o HI HR Ho2 Hc) as HR'.
  pose proof (step_keeps_empty s o HI Ho1 Hc He) as He'.
  pose proof (apply_all_ok _ t HK (actions_ok s o Ho2 HI' He')) as HK'. tauto.
Qed.

Definition registered_pats (s : core) : list str := flat_map snd (regs (gg_store s)).
Definition registered_wills (s : core) : list (str * json) := flat_map snd (regs (lw_store s)).

(* C18: what the next start recovers is a function of the store at that point *)
Theorem recover_after_history os :
  reg_hist init os -> no_crash_run init os ->
  let s := final init os in
  Forall (fun g => wf_pat (kseg_parse g) = true) (registered_pats s) ->
  meq (abs (recover (apply_all t_empty (any_actions init os))))
      (m_wills (m_bury (m_user (abs s)) (registered_pats s)) (registered_wills s)).
Proof.
  intros Ho Hnc s Hwf.
  destruct (history_invariants os init t_empty Inv_init eq_refl tracks_init RegTracks_init TabOK_empty) as (HI & HT & HR & HK & Hroot); try assumption;
    try (apply abs_init).
  fold s in HI, HT, HR, HK, Hroot. set (t := apply_all t_empty (any_actions init os)) in *.
  destruct HK as (HRows & Lg & Sg & Ll & Sl).
  assert (Eg : t_gg t = regs (gg_store s)) by (apply table_is_regs; try assumption; intros c Hc; exact (proj1 (HR c Hc))).
  assert (El : t_lw t = regs (lw_store s)) by (apply table_is_regs; try assumption; intros c Hc; exact (proj2 (HR c Hc))).
  unfold registered_pats, registered_wills in *. rewrite <- Eg in *. rewrite <- El.
  exact (proj2 (recover_spec s t HI HT HRows Hroot Hwf)).
Qed.

(* the hypotheses hold and the conclusion says something: two clients write, one registers grave goods x/# and a last
   will; after a crash at that point the start buries x/a, publishes the will, keeps y with CAS version 1 (F13) *)
Definition demo_recover : list op :=
  [OConnected 1; OConnected 2;
   OSet 2 [120;47;97] (JNum [49]) false;                                  (* x/a = 1 *)
   OCSet 2 [121] (JNum [50]) 0 false; OCSet 2 [121] (JNum [51]) 1 false;  (* y = 3, version 2 *)
   OSet 1 (key_of (gg_path 1)) (JArr [JStr [120;47;35]]) false;           (* grave goods x/# *)
   OSet 1 (key_of (lw_path 1)) (JArr [JObj [([107;101;121], JStr [119]); ([118;97;108;117;101], JNum [49])]]) false].  (* will w = 1 *)

Example demo_recover_ok :
  (reg_hist init demo_recover /\ no_crash_run init demo_recover /\
   Forall (fun g => wf_pat (kseg_parse g) = true) (registered_pats (final init demo_recover))) /\
  let r := recover (apply_all t_empty (any_actions init demo_recover)) in
  abs (final init demo_recover) [[120];[97]] = Some (Plain (JNum [49])) /\ abs (final init demo_recover) [[121]] = Some (Cas (JNum [51]) 2) /\
  abs r [[120];[97]] = None /\ abs r [[121]] = Some (Cas (JNum [51]) 1) /\ abs r [[119]] = Some (Plain (JNum [49])) /\
  abs r (gg_path 1) = None.
Proof. split; vm_compute; repeat constructor; discriminate. Qed.
