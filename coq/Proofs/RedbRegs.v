(* C18: the registration tables follow the store.  After any history of client requests of every kind except import,
   the grave-goods and last-will tables of the ReDB backend hold, for every client, exactly what its registration keys
   $SYS/clients/<id>/graveGoods and .../lastWill decode to (after the repair of F28: a registration withdrawn by deleting
   its key leaves the table too).  Hypothesis: last wills do not write under $SYS/ (a will that re-creates its own
   client's registration key leaves a registration in the store that no table entry backs). *)
From Coq Require Import Lia List.
Import ListNotations.
From WB Require Import Base.ListFacts Base.Str Base.StrFacts Base.Json Model.Key Model.Consts Model.Store Model.Match Model.Subs Model.Entry
  Model.Core Model.Persist Model.Redb Model.Sync Spec.MapSpec Proofs.GoodNames Proofs.CoreFacts Proofs.LenFacts Proofs.C01Proof Proofs.SessionEnd
  Proofs.StreamProof Proofs.Writes Proofs.RunAt Proofs.SyncFacts Proofs.SysKeep Proofs.SyncAll Proofs.RedbFacts Proofs.RedbTrack Proofs.RedbSession.
Local Open Scope N_scope.
Local Arguments N.mul : simpl never.   (* for lia in client_of_str_sound *)

Fixpoint c_get {V} (c : cid) (l : list (cid * V)) : option V :=
  match l with [] => None | (c', v) :: l' => if N.eqb c c' then Some v else c_get c l' end.

Lemma c_get_set {V} c c' (v : V) l : c_get c' (c_set c v l) = if N.eqb c' c then Some v else c_get c' l.
Proof.
  induction l as [|[c0 v0] l IH]; cbn [c_set c_get]; [reflexivity|].
  destruct (N.eqb_spec c c0) as [<-|Hne]; cbn [c_get]; [now destruct (N.eqb c' c)|].
  destruct (N.ltb c c0); cbn [c_get]; [reflexivity|].
  rewrite IH. destruct (N.eqb_spec c' c0) as [->|]; [|reflexivity]. destruct (N.eqb_spec c0 c); [now elim Hne|reflexivity].
Qed.

Lemma c_get_del {V} c c' (l : list (cid * V)) : c_get c' (c_del c l) = if N.eqb c' c then None else c_get c' l.
Proof.
  unfold c_del. induction l as [|[c0 v0] l IH]; cbn [filter c_get fst]; [now destruct (N.eqb c' c)|].
  destruct (N.eqb_spec c c0) as [<-|Hne]; cbn [negb c_get]; rewrite IH; [now destruct (N.eqb c' c)|].
  destruct (N.eqb_spec c' c0) as [->|]; [|reflexivity]. destruct (N.eqb_spec c0 c); [now elim Hne|reflexivity].
Qed.

Definition gg_path (c : cid) : list str := [s_SYS; s_clients; client_str c; s_graveGoods].
Definition lw_path (c : cid) : list str := [s_SYS; s_clients; client_str c; s_lastWill].
Definition gg_dec (e : entry) : option (list str) := match entry_val e with JNull => None | v => dec_grave_goods v end.
Definition lw_dec (e : entry) : option (list (str * json)) := match entry_val e with JNull => None | v => dec_last_will v end.
Definition gg_store (s : core) (c : cid) : option (list str) := match abs s (gg_path c) with Some e => gg_dec e | None => None end.
Definition lw_store (s : core) (c : cid) : option (list (str * json)) := match abs s (lw_path c) with Some e => lw_dec e | None => None end.

Definition gg_val (e : entry) : option (list str) := match entry_val e with JNull => None | v => dec_grave_goods v end.
Definition lw_val (e : entry) : option (list (str * json)) := match entry_val e with JNull => None | v => dec_last_will v end.

(* the ids that [client_str] writes with its two hex digits and [client_of_str] reads back (RedbFacts.small_inv) *)
Definition small (c : cid) : Prop := c <> 0 /\ c < 256.

Definition RegTracks (s : core) (t : tables) : Prop :=
  forall c, small c -> c_get c (t_gg t) = gg_store s c /\ c_get c (t_lw t) = lw_store s c.

Lemma client_str_inj c c' : c < 256 -> c' < 256 -> client_str c = client_str c' -> c = c'.
Proof. intros H H' E. pose proof (small_inv c H) as A. rewrite E, (small_inv c' H') in A. now injection A. Qed.

(* both registration tables at once: everything below is said for a kind [r] *)
Definition rpath (r : reg) (c : cid) : list str := [s_SYS; s_clients; client_str c; reg_leaf r].
Definition reg_tab (r : reg) : tables -> list (cid * reg_val r) := match r with GG => t_gg | LW => t_lw end.
Definition reg_dec (r : reg) : entry -> option (reg_val r) := match r with GG => gg_dec | LW => lw_dec end.
Definition reg_store (r : reg) (s : core) (c : cid) : option (reg_val r) :=
  match abs s (rpath r c) with Some e => reg_dec r e | None => None end.

Lemma RegTracks_all s t : RegTracks s t <-> forall r c, small c -> c_get c (reg_tab r t) = reg_store r s c.
Proof.
  split; [intros H [] c Hc; apply (H c Hc)|]. intros H c Hc. split; [apply (H GG c Hc)|apply (H LW c Hc)].
Qed.

(* the last registration action of a client decides its table entry *)
Definition reg_hit (r : reg) (c : cid) (a : raction) : option (option (reg_val r)) :=
  match r return option (option (reg_val r)) with
  | GG => match a with AGG c' g => if N.eqb c c' then Some g else None | AClear => Some None | _ => None end
  | LW => match a with ALW c' g => if N.eqb c c' then Some g else None | AClear => Some None | _ => None end
  end.

Lemma apply_all_reg r c t acts :
  c_get c (reg_tab r (apply_all t acts)) =
  match last_of (reg_hit r c) acts with Some g => g | None => c_get c (reg_tab r t) end.
Proof.
  apply (fold_left_last apply_action (fun t => c_get c (reg_tab r t)) (reg_hit r c)). clear. intros t a.
  destruct r; destruct a as [k e|k|c' [g|]|c' [g|]|]; cbn [apply_action reg_tab t_gg t_lw reg_hit]; try reflexivity;
    rewrite ?c_get_set, ?c_get_del; now destruct (N.eqb c c').
Qed.

Lemma reg_hit_act r c c' g : reg_hit r c' (reg_act r c g) = if N.eqb c' c then Some g else None.
Proof. now destruct r. Qed.

Lemma reg_hit_act_inv r r2 c c' g x : reg_hit r c' (reg_act r2 c g) = Some x -> r2 = r /\ c = c'.
Proof. destruct r, r2; cbn [reg_hit reg_act]; try discriminate; destruct (N.eqb_spec c' c); try discriminate; auto. Qed.

Lemma rpath_split r c : split slash (key_of (rpath r c)) = rpath r c.
Proof. apply split_client_topic. destruct r; now apply no_sep_forallb. Qed.

Lemma rpath_prefixed r c : starts_with s_SYS_prefix (key_of (rpath r c)) = true.
Proof. reflexivity. Qed.

Lemma rpath_inj r c c' : c < 256 -> c' < 256 -> rpath r c = rpath r c' -> c = c'.
Proof. intros H H' [= E]. now apply client_str_inj. Qed.

Lemma small_path_inj_gg c c' : c < 256 -> c' < 256 -> gg_path c = gg_path c' -> c = c'.
Proof. exact (rpath_inj GG c c'). Qed.
Lemma small_path_inj_lw c c' : c < 256 -> c' < 256 -> lw_path c = lw_path c' -> c = c'.
Proof. exact (rpath_inj LW c c'). Qed.

Lemma rpath_not_server r c : ~ server_path (rpath r c).
Proof. destruct r; intros [H|(x & [H|H])]; discriminate. Qed.

Lemma rpath_reg r c : reg_path (rpath r c).
Proof. exists (client_str c), (reg_leaf r). split; [reflexivity|]. destruct r; auto. Qed.

Lemma hexdig_hexval h a : hexval h = Some a -> hexdig a = h /\ a < 16.
Proof.
  unfold hexval, hexdig.
  destruct (N.leb_spec 48 h), (N.leb_spec h 57), (N.leb_spec 97 h), (N.leb_spec h 102); cbn [andb]; try discriminate; try lia;
    intros [= <-]; [destruct (N.ltb_spec (h - 48) 10)|destruct (N.ltb_spec (h - 87) 10)]; lia.
Qed.

Lemma client_of_str_sound cs X : client_of_str cs = Some X -> X <> 0 -> cs = client_str X.
Proof.
  unfold client_of_str. destruct (str_eqb_spec cs uuid_nil) as [->|_]; [intros [= <-] H; now elim H|].
  destruct (starts_with uuid_prefix cs) eqn:Es; [|discriminate].
  destruct (starts_with_app _ _ Es) as (r & ->). change (skipn (length uuid_prefix) (uuid_prefix ++ r)) with r.
  destruct r as [|h [|l [|x r]]]; try discriminate.
  destruct (hexval h) as [a|] eqn:Eh; [|discriminate]. destruct (hexval l) as [b|] eqn:El; [|discriminate].
  intros [= <-] Hne. destruct (hexdig_hexval h a Eh) as (Ha & Ha16). destruct (hexdig_hexval l b El) as (Hb & Hb16).
  unfold client_str. destruct (N.eqb_spec (16 * a + b) 0) as [E|_]; [contradiction|].
  assert (E1 : (16 * a + b) / 16 = a) by (symmetry; apply (N.div_unique (16 * a + b) 16 a b); lia).
  assert (E2 : (16 * a + b) mod 16 = b) by (symmetry; apply (N.mod_unique (16 * a + b) 16 a b); lia).
  now rewrite E1, E2, Ha, Hb.
Qed.

Lemma guard_own c k a cs leaf :
  c <> 0 -> check_read_only k c = None -> starts_with s_SYS_prefix k = true -> split slash k = [a; s_clients; cs; leaf] ->
  a = s_SYS /\ cs = client_str c.
Proof.
  intros Hc Hg Hp Hs. apply prefixed_iff in Hp as (y & r & Hs'). rewrite Hs in Hs'. injection Hs' as -> _ _.
  destruct (accepted_sys_key c k _ Hc Hg Hs) as (p3 & more & [= ->] & _). now split.
Qed.

Lemma is_reg_topic_split leaf k : is_reg_topic leaf k = true -> exists a cs, split slash k = [a; s_clients; cs; leaf].
Proof.
  unfold is_reg_topic. destruct (split slash k) as [|a [|b [|cs [|d [|e r]]]]]; try discriminate.
  intros H. apply andb_prop in H as [H1 H2]. apply str_eqb_eq in H1, H2. subst. eauto.
Qed.

Lemma upd_action_reg r c c' e : upd_action (Some c) (key_of (rpath r c')) e = [reg_act r c (reg_dec r e)].
Proof. unfold upd_action, is_reg_topic. rewrite rpath_prefixed, rpath_split. now destruct r. Qed.

Lemma upd_action_inv c k e a :
  In a (upd_action (Some c) k e) ->
  starts_with s_SYS_prefix k = false /\ a = AUpd k e \/
  starts_with s_SYS_prefix k = true /\ exists r, is_reg_topic (reg_leaf r) k = true /\ a = reg_act r c (reg_dec r e).
Proof.
  unfold upd_action. destruct (starts_with s_SYS_prefix k); [|intros [<-|[]]; now left].
  destruct (is_reg_topic s_graveGoods k) eqn:E1; [intros [<-|[]]; right; split; [reflexivity|now exists GG]|].
  destruct (is_reg_topic s_lastWill k) eqn:E2; [intros [<-|[]]; right; split; [reflexivity|now exists LW]|intros []].
Qed.

Lemma reg_dec_val r e e' : entry_val e' = entry_val e -> reg_dec r e' = reg_dec r e.
Proof. destruct r; unfold reg_dec, gg_dec, lw_dec; now intros ->. Qed.

Lemma last_reg_upd r c c' k e p :
  small c -> small c' -> check_read_only k c = None -> parse_segments k = Ok p ->
  last_of (reg_hit r c') (upd_action (Some c) k e) = if path_eqb p (rpath r c') then Some (reg_dec r e) else None.
Proof.
  intros Hc Hc' Hg Hp. pose proof (last_of_spec (reg_hit r c') (upd_action (Some c) k e)) as H.
  destruct (parse_segments_good _ _ Hp) as (Hsp & _).
  destruct (last_of (reg_hit r c') (upd_action (Some c) k e)) as [x|].
  - destruct H as (a & Hin & E). apply upd_action_inv in Hin as [(_ & ->)|(Hpre & r2 & Ht & ->)]; [now destruct r|].
    destruct (reg_hit_act_inv _ _ _ _ _ _ E) as (-> & ->). rewrite reg_hit_act, N.eqb_refl in E. injection E as <-.
    destruct (is_reg_topic_split _ _ Ht) as (a & cs & Hs). destruct (guard_own c' k a cs _ (proj1 Hc') Hg Hpre Hs) as (-> & ->).
    rewrite Hsp, Hs. fold (rpath r c'). now rewrite path_eqb_refl.
  - destruct (path_eqb_spec p (rpath r c')) as [->|]; [exfalso|reflexivity].
    rewrite (key_of_path _ _ Hp) in Hg, H. rewrite upd_action_reg in H. specialize (H _ (or_introl eq_refl)).
    rewrite reg_hit_act in H. destruct (N.eqb_spec c' c) as [|Hne]; [discriminate|]. apply Hne, (rpath_inj r _ _ (proj2 Hc') (proj2 Hc)).
    destruct (guard_own c _ s_SYS (client_str c') (reg_leaf r) (proj1 Hc) Hg (rpath_prefixed r c') (rpath_split r c')) as (_ & E).
    unfold rpath. now rewrite E.
Qed.

Lemma reg_track_insert s t c k e force :
  Inv s -> RegTracks s t -> small c -> o_res (snd (do_insert s c k e force)) <> RCrash ->
  RegTracks (fst (do_insert s c k e force))
            (apply_all t (match o_res (snd (do_insert s c k e force)) with RUnit => upd_action (Some c) k e | _ => [] end)).
Proof.
  intros HI HT Hc Hnc. pose proof (do_insert_effect s c k e force HI) as H. cbv zeta in H.
  destruct (o_res (snd (do_insert s c k e force))) eqn:Hres; try contradiction; [|now rewrite H].
  destruct H as (p & ex & ch & e' & Hp & Hd & _ & Hm). rewrite RegTracks_all in *. intros r c' Hc'.
  rewrite apply_all_reg, (last_reg_upd r c c' k e p Hc Hc' (do_insert_guard _ _ _ _ _ Hres) Hp). unfold reg_store. rewrite (Hm _).
  destruct (path_eqb_spec p (rpath r c')) as [->|Hne].
  - rewrite m_set_eq. symmetry. apply reg_dec_val, (decide_val _ _ _ _ _ _ Hd).
  - rewrite m_set_neq by exact Hne. now apply HT.
Qed.

Lemma reg_del_rpath r c : small c -> reg_del (key_of (rpath r c)) = [reg_act r c None].
Proof.
  intros (_ & Hc). unfold reg_del. rewrite rpath_split. unfold rpath. rewrite (small_inv c Hc). now destruct r.
Qed.

Lemma last_reg_del r c c' k :
  c <> 0 -> small c' ->
  last_of (reg_hit r c') (del_action c k) = if str_eqb (key_of (rpath r c')) k then Some None else None.
Proof.
  intros Hc Hc'. apply N.eqb_neq in Hc. destruct (str_eqb_spec (key_of (rpath r c')) k) as [<-|Hne].
  - rewrite (del_action_sys c _ (rpath_prefixed r c')), Hc, (reg_del_rpath r c' Hc'). cbn [last_of]. now rewrite reg_hit_act, N.eqb_refl.
  - destruct (starts_with s_SYS_prefix k) eqn:Ep; [|rewrite (del_action_user c k Ep); now destruct r].
    rewrite (del_action_sys c k Ep), Hc. apply last_of_none, Forall_forall. intros a Ha.
    apply reg_del_shape in Ha as (r2 & a0 & x & X & Hs & HX & ->).
    destruct (reg_hit r c' (reg_act r2 X None)) eqn:E; [exfalso|reflexivity]. apply reg_hit_act_inv in E as (-> & ->).
    apply prefixed_iff in Ep as (y & l & Hs'). rewrite Hs in Hs'. injection Hs' as -> _ _.
    rewrite (client_of_str_sound x c' HX (proj1 Hc')) in Hs. apply Hne. unfold key_of. fold (rpath r c') in Hs.
    rewrite <- Hs. apply join_split.
Qed.

Lemma reg_track_delete s t c k :
  Inv s -> RegTracks s t -> c <> 0 ->
  RegTracks (fst (do_delete s c k))
            (apply_all t (match o_res (snd (do_delete s c k)) with RValue _ => del_action c k | _ => [] end)).
Proof.
  intros HI HT Hc0. pose proof (do_delete_effect s c k HI) as H. cbv zeta in H. rewrite RegTracks_all in *.
  destruct (o_res (snd (do_delete s c k))) eqn:Er; try contradiction; intros r c' Hc'; unfold reg_store.
  - destruct H as (p & e & Hp & _ & _ & _ & Hm). rewrite apply_all_reg, (last_reg_del r c c' k Hc0 Hc'), (Hm _).
    destruct (str_eqb_spec (key_of (rpath r c')) k) as [<-|Hne].
    + apply parse_segments_good in Hp as (-> & _). now rewrite rpath_split, m_del_eq.
    + rewrite m_del_neq; [now apply HT|]. intros ->. now apply Hne, eq_sym, key_of_path.
  - destruct H as (_ & Hm). rewrite (Hm _). now apply HT.
Qed.

Lemma reg_track_pdelete s t c pat :
  Inv s -> RegTracks s t -> c <> 0 ->
  RegTracks (fst (do_pdelete s c false pat))
            (apply_all t (match o_res (snd (do_pdelete s c false pat)) with RKvs l => flat_map (fun kv => del_action c (fst kv)) l | _ => [] end)).
Proof.
  intros HI HT Hc0. pose proof (do_pdelete_effect s c pat HI) as H. cbv zeta in H.
  destruct (o_res (snd (do_pdelete s c false pat))) eqn:Er; try contradiction; [|now rewrite H].
  destruct H as (_ & Hm & ->). rewrite RegTracks_all in *. intros r c' Hc'.
  rewrite apply_all_reg, (last_of_flat_map _ _ (fun kv => str_eqb (key_of (rpath r c')) (fst kv)) None)
    by (intros; now apply last_reg_del).
  rewrite (existsb_removed s _ _ HI), rpath_split, (HT r c' Hc'). unfold reg_store. rewrite (Hm _). unfold m_pdel.
  destruct (abs s (rpath r c')); now destruct (store_match (kseg_parse pat) (rpath r c')).
Qed.

Definition is_none {A} (o : option A) : bool := match o with None => true | Some _ => false end.

Lemma In_removed_regs c s s' a :
  Inv s ->
  (In a (removed_regs c s s') <->
   not_own c a = true /\ exists q e, reg_path q /\ abs s q = Some e /\ abs s' q = None /\ In a (reg_del (key_of q))).
Proof.
  intros HI. unfold removed_regs. rewrite filter_In, in_flat_map, and_comm. fold (registrations s). apply and_iff_compat_l. split.
  - intros ([q e] & Hm & Hin). apply (In_registrations s q e HI) in Hm as (Hr & Hl). cbn [fst] in Hin.
    change (lookup (data s') q) with (abs s' q) in Hin. destruct (abs s' q) eqn:E; [destruct Hin|]. now exists q, e.
  - intros (q & e & Hr & Hl & E & Hin). exists (q, e). split; [now apply In_registrations|]. cbn [fst].
    change (lookup (data s') q) with (abs s' q). now rewrite E.
Qed.

Lemma removed_regs_reg r s s' c c' :
  Inv s -> small c' -> c' <> c ->
  last_of (reg_hit r c') (removed_regs c s s') =
  match abs s (rpath r c') with Some _ => if is_none (abs s' (rpath r c')) then Some None else None | None => None end.
Proof.
  intros HI Hc' Hne. pose proof (last_of_spec (reg_hit r c') (removed_regs c s s')) as H.
  destruct (last_of (reg_hit r c') (removed_regs c s s')) as [x|].
  - destruct H as (a & Hin & E). apply (In_removed_regs c s s' a HI) in Hin as (_ & q & e & (y & leaf & -> & _) & Hl & El & Hin).
    apply reg_del_shape in Hin as (r2 & a0 & x2 & X & Hs & HX & ->).
    pose proof (proj1 (parse_segments_good _ _ (key_of_parse s _ e HI Hl))) as Hq. rewrite Hs in Hq. injection Hq as _ -> ->.
    pose proof (reg_hit_act_inv _ _ _ _ _ _ E) as (-> & ->). rewrite reg_hit_act, N.eqb_refl in E. injection E as <-.
    rewrite (client_of_str_sound x2 c' HX (proj1 Hc')) in Hl, El. fold (rpath r c') in Hl, El. now rewrite Hl, El.
  - destruct (abs s (rpath r c')) as [e|] eqn:Hl; [|reflexivity]. destruct (abs s' (rpath r c')) eqn:El; [reflexivity|exfalso].
    assert (Hin : In (reg_act r c' None) (removed_regs c s s')).
    { apply (In_removed_regs c s s' _ HI). split; [destruct r; cbn; now apply Bool.negb_true_iff, N.eqb_neq, not_eq_sym|].
      exists (rpath r c'), e. rewrite (reg_del_rpath r c' Hc'). repeat split; try assumption; [apply rpath_reg|now left]. }
    apply H in Hin. rewrite reg_hit_act, N.eqb_refl in Hin. discriminate.
Qed.

(* no last will of the client writes under $SYS/: one that re-created a registration key would leave a registration in
   the store that no table entry backs *)
Definition no_zombie (s : core) (c : cid) : Prop := Forall (fun kv => starts_with s_SYS_prefix (fst kv) = false) (lw_of s c).

Lemma own_pat_kills r c : kills (rpath r c) (OPDelete 0 (own_pat c)).
Proof. cbn [kills]. rewrite own_pat_parse. unfold rpath. cbn [store_match wf_pat]. now rewrite !str_eqb_refl. Qed.

Lemma end_ops_spare s c r c' : no_zombie s c -> Forall (spares (rpath r c')) (end_ops s c).
Proof.
  intros Hz. apply Forall_end_ops; try (intros; exact I).
  - intros v Hp. apply parse_segments_good in Hp as (Hp & _). discriminate.
  - intros kv Hin Hp. unfold no_zombie in Hz. rewrite Forall_forall in Hz. specialize (Hz kv Hin).
    rewrite (key_of_path _ _ Hp), rpath_prefixed in Hz. discriminate.
Qed.

Lemma last_reg_written r c s s' : last_of (reg_hit r c) (written_keys s s') = None.
Proof. apply last_of_none, Forall_flat_map, Forall_forall. intros m _. destruct (entry_eqb' _ _); repeat constructor; now destruct r. Qed.

Lemma last_reg_removed r c s s' : last_of (reg_hit r c) (removed_keys s s') = None.
Proof. apply last_of_none, Forall_flat_map, Forall_forall. intros m _. destruct (lookup _ _); repeat constructor; now destruct r. Qed.

Lemma last_reg_clear r c c' : last_of (reg_hit r c') [AGG c None; ALW c None] = if N.eqb c' c then Some None else None.
Proof. destruct r; cbn [last_of reg_hit]; now destruct (N.eqb c' c). Qed.

Theorem reg_track_session_end s t c :
  Inv s -> RegTracks s t -> small c -> no_zombie s c ->
  o_res (snd (step s (ODisconnected c))) = RUnit ->
  RegTracks (fst (step s (ODisconnected c))) (apply_all t (actions_of s (ODisconnected c))).
Proof.
  intros HI HT Hsc Hz Hres. unfold actions_of. rewrite Hres. set (s' := fst (step s (ODisconnected c))).
  assert (Hc : o_res (snd (step s (ODisconnected c))) <> RCrash) by (rewrite Hres; discriminate).
  pose proof (expand_disconnected s c (proj1 Hsc)) as Ee. rewrite RegTracks_all in *. intros r c' Hc'.
  rewrite apply_all_reg, !last_of_app, (last_reg_written r c' s s'), (last_reg_removed r c' s s'), last_reg_clear.
  unfold reg_store. destruct (N.eqb_spec c' c) as [->|Hne].
  - (* the ending client: its registrations are gone from the store *)
    unfold s'. rewrite (step_kills (rpath r c) s (ODisconnected c) HI); rewrite ?Ee; [reflexivity|now apply end_ops_spare| |exact Hc].
    apply Exists_exists. exists (OPDelete 0 (own_pat c)). split; [|apply own_pat_kills].
    (* the fourth block of [end_ops] *)
    unfold end_ops, own_pat. rewrite !in_app_iff. right. right. right. left. now left.
  - (* another client: its registrations stay, or a burial removed them *)
    rewrite (removed_regs_reg r s s' c c' HI Hc' Hne), (HT r c' Hc'). unfold reg_store.
    destruct (step_spares (rpath r c') s (ODisconnected c) HI) as (_ & [E|E]);
      [rewrite Ee; now apply end_ops_spare|exact Hc| |]; fold s' in E; rewrite E; now destruct (abs s (rpath r c')).
Qed.

Definition reg_op (s : core) (o : op) : Prop :=
  match o with
  | OSet c _ _ _ | OCSet c _ _ _ _ => small c
  | ODelete c _ | OPDelete c _ => c <> 0
  | ODisconnected c => small c /\ no_zombie s c
  | OImport _ => False
  | _ => True
  end.

Lemma reg_track_silent s t o :
  silent o -> Inv s -> RegTracks s t -> o_res (snd (step s o)) <> RCrash ->
  RegTracks (fst (step s o)) (apply_all t (actions_of s o)).
Proof.
  intros Ho HI HT Hc. rewrite RegTracks_all in *. intros r c Hs. unfold reg_store.
  rewrite (actions_of_silent s o Ho), (silent_frame s o _ Ho HI Hc (rpath_not_server r c)). now apply HT.
Qed.

(* [reg_track_step] below is this with the hypothesis [LenInv s], which C18 states and nothing needs; so it is with
   [tables_track_any] *)
Lemma reg_step s t o :
  Inv s -> RegTracks s t -> reg_op s o -> o_res (snd (step s o)) <> RCrash ->
  RegTracks (fst (step s o)) (apply_all t (actions_of s o)).
Proof.
  intros HI HT Ho Hnc. destruct o; try contradiction; try (now apply reg_track_silent).
  - exact (reg_track_insert s t c k (Plain v) force HI HT Ho Hnc).
  - exact (reg_track_insert s t c k (Cas v ver) force HI HT Ho Hnc).
  - exact (reg_track_delete s t c k HI HT Ho).
  - exact (reg_track_pdelete s t c p HI HT Ho).
  - destruct Ho as (Hs & Hz). exact (reg_track_session_end s t c HI HT Hs Hz (disconnected_unit s c Hnc)).
Qed.

Theorem reg_track_step s t o :
  Inv s -> LenInv s -> RegTracks s t -> reg_op s o -> o_res (snd (step s o)) <> RCrash ->
  RegTracks (fst (step s o)) (apply_all t (actions_of s o)).
Proof. intros HI _. now apply reg_step. Qed.

Fixpoint reg_hist (s : core) (os : list op) : Prop :=
  match os with [] => True | o :: r => redb_op o /\ reg_op s o /\ reg_hist (fst (step s o)) r end.

(* C18 for all three tables of the database: the rows ([tracks], CAS rows one version behind: F13) and the grave-goods and
   last-will entries of every client ([RegTracks]) *)
Theorem tables_track_any os : forall s t,
  Inv s -> LenInv s -> tracks s t -> RegTracks s t -> abs s [s_SYS] = None -> reg_hist s os -> no_crash_run s os ->
  Inv (final s os) /\ tracks (final s os) (apply_all t (any_actions s os)) /\ RegTracks (final s os) (apply_all t (any_actions s os)).
Proof.
  intros s t HI _ HT HR Hr Ho Hnc.
  apply (actions_fold (fun s t os => (Inv s /\ tracks s t /\ RegTracks s t) /\ abs s [s_SYS] = None /\ reg_hist s os /\ no_crash_run s os));
    [|tauto].
  clear. intros s t o os ((HI & HT & HR) & Hr & (Ho1 & Ho2 & Hos) & Hc & Hnc).
  destruct (track_any_step s t o HI HT Hr Ho1 Hc) as (HI' & HT' & Hr').
  pose proof (reg_step s t o HI HR Ho2 Hc). tauto.
Qed.

Lemma RegTracks_init : RegTracks init t_empty.
Proof. intros c _. split; reflexivity. Qed.

Theorem tables_track_any_init os :
  reg_hist init os -> no_crash_run init os ->
  tracks (final init os) (apply_all t_empty (any_actions init os)) /\
  RegTracks (final init os) (apply_all t_empty (any_actions init os)).
Proof.
  intros Ho Hnc. now apply (tables_track_any os init t_empty Inv_init eq_refl tracks_init RegTracks_init (abs_init _)).
Qed.

(* the hypotheses are satisfiable, and the statement says something: a client registers grave goods and a last will,
   withdraws the grave goods by deleting the key (F28), a second client's burial pattern starts with a wildcard and removes
   the first client's last will (F4) *)
Definition demo_hist : list op :=
  [OConnected 1; OConnected 2;
   OSet 1 (key_of (gg_path 1)) (JArr [JStr [120;47;35]]) false;
   OSet 1 (key_of (lw_path 1)) (JArr [JObj [([107;101;121], JStr [119]); ([118;97;108;117;101], JNum [49])]]) false;
   ODelete 1 (key_of (gg_path 1));
   OSet 2 (key_of (gg_path 2)) (JArr [JStr [63;47;99;108;105;101;110;116;115;47;63;47;108;97;115;116;87;105;108;108]]) false;
   ODisconnected 2].

Example demo_hist_ok :
  let T := apply_all t_empty (any_actions init demo_hist) in
  let T4 := apply_all t_empty (any_actions init (firstn 4 demo_hist)) in
  c_get 1 (t_gg T4) = Some [[120;47;35]] /\ c_get 1 (t_lw T4) = Some [([119], JNum [49])] /\
  c_get 1 (t_gg T) = None /\ c_get 1 (t_lw T) = None /\ c_get 2 (t_gg T) = None /\
  gg_store (final init demo_hist) 1 = None /\ lw_store (final init demo_hist) 1 = None.
Proof. vm_compute. repeat split; reflexivity. Qed.

Example demo_hist_hyps : reg_hist init demo_hist /\ no_crash_run init demo_hist.
Proof. vm_compute. repeat constructor; discriminate. Qed.
