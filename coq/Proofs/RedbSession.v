(* C18: the table follows the store through every request of every kind but import, session ends included
   (track_any_step, table_tracks_any).  Worterbuch::disconnected queues, for the user keys, a delete for every key its
   burial removed and an update for every key its last will wrote (Model/Redb.v reads them off the states before and
   after); with SessionEnd.v -- a session end is a run of pattern deletes and forced plain sets -- the rows are again
   the stored entries (session_end_tracks).  [silent], [spares] and [kills] sort the requests by what they can do to one
   path; RedbRegs.v and RedbRecover.v use them again.  Hypothesis: nothing is stored at the key "$SYS" itself (no client
   request can put anything there). *)
From Coq Require Import List.
Import ListNotations.
From WB Require Import Base.ListFacts Base.Str Base.StrFacts Base.Json Base.JsonFacts Model.Key Model.Consts Model.Store Model.Match Model.Subs
  Model.Entry Model.Core Model.Persist Model.Redb Model.Sync Spec.MapSpec Proofs.StoreFacts Proofs.GoodNames Proofs.CoreFacts Proofs.LenFacts
  Proofs.C01Proof Proofs.Frame Proofs.SessionEnd Proofs.StreamProof Proofs.StreamAll Proofs.Writes Proofs.RunAt Proofs.SyncFacts Proofs.SysKeep Proofs.RedbFacts Proofs.RedbTrack.
Local Open Scope N_scope.

(* the keys the server itself writes when a session starts *)
Definition server_path (q : list str) : Prop :=
  q = [s_SYS; s_clients] \/ exists x, q = [s_SYS; s_clients; x; s_protocol] \/ q = [s_SYS; s_clients; x; s_address].

Lemma Forall_conn_ops (P : op -> Prop) s c :
  (forall k v, (forall q, parse_segments k = Ok q -> server_path q) -> P (OSet 0 k v true)) -> Forall P (conn_ops s c).
Proof.
  intros H. unfold conn_ops. repeat apply Forall_cons; try apply Forall_nil; apply H; intros q Hp;
    apply parse_segments_good in Hp as (-> & _).
  - now left.
  - right. exists (client_str c). left. now apply split_client_topic, no_sep_forallb.
  - right. exists (client_str c). right. now apply split_client_topic, no_sep_forallb.
Qed.

(* requests that queue nothing; all but a session start leave the data alone *)
Definition silent (o : op) : Prop :=
  match o with
  | OSet _ _ _ _ | OCSet _ _ _ _ _ | ODelete _ _ | OPDelete _ _ | OImport _ | ODisconnected _ => False
  | _ => True
  end.

Lemma actions_of_silent s o : silent o -> actions_of s o = [].
Proof. destruct o; try contradiction; reflexivity. Qed.

Lemma silent_frame s o q :
  silent o -> Inv s -> o_res (snd (step s o)) <> RCrash -> ~ server_path q -> abs (fst (step s o)) q = abs s q.
Proof.
  intros Ho HI Hc Hq. refine (proj2 (step_run q (fun y => y = abs s q) s o HI _ _ Hc eq_refl)); [now destruct o|].
  eapply Forall_impl; [apply keeps_same|].
  destruct o; try contradiction; cbn [expand snd]; try (apply Forall_cons; [intros m; reflexivity|apply Forall_nil]).
  destruct (N.eqb c 0 || existsb (N.eqb c) (clients s))%bool; [apply Forall_nil|]. apply Forall_conn_ops.
  intros k v H m. apply point_write_other. intros Hp. exact (Hq (H q Hp)).
Qed.

(* [spares q]: the request writes nothing new at q -- a set addressed to q is one the guard refuses *)
Definition spares (q : list str) (o : op) : Prop :=
  match o with
  | OSet c k _ _ | OCSet c k _ _ _ => parse_segments k = Ok q -> check_read_only k c <> None
  | OImport _ => False
  | _ => True
  end.

Lemma spares_imp q o : spares q o -> import_ok o.
Proof. destruct o; try (intros _; exact I). intros []. Qed.

Lemma spares_keeps q x o : spares q o -> keeps q (fun y => y = x \/ y = None) o.
Proof.
  intros Hs m HJ. destruct o; try exact HJ; try contradiction; cbn [data_write spares] in *.
  - destruct (point_write_at c k (ins_upd k (Plain v) force) m q) as [->|(y & Hg & Hp & _)]; [exact HJ|now elim (Hs Hp)].
  - destruct (point_write_at c k (ins_upd k (Cas v ver) force) m q) as [->|(y & Hg & Hp & _)]; [exact HJ|now elim (Hs Hp)].
  - destruct (point_write_at c k del_upd m q) as [->|(y & _ & _ & [= <-] & ->)]; [exact HJ|now right].
  - destruct (pdel_write_at c p m q) as [->|(_ & _ & ->)]; [exact HJ|now right].
Qed.

Lemma run_spares q ops s :
  Inv s -> Forall elem ops -> Forall (spares q) ops -> abs (final s ops) q = abs s q \/ abs (final s ops) q = None.
Proof.
  intros HI He Hs. eapply proj2, (run_at q (fun y => y = abs s q \/ y = None)); auto; (eapply Forall_impl; [|exact Hs]).
  - apply spares_imp.
  - apply spares_keeps.
Qed.

Lemma step_spares q s o :
  Inv s -> Forall (spares q) (snd (expand s o)) -> o_res (snd (step s o)) <> RCrash ->
  Inv (fst (step s o)) /\ (abs (fst (step s o)) q = abs s q \/ abs (fst (step s o)) q = None).
Proof.
  intros HI Hs Hc. apply (step_run q (fun y => y = abs s q \/ y = None)); auto.
  - destruct o; try exact I. apply Forall_cons_iff in Hs as ([] & _).
  - eapply Forall_impl; [apply spares_keeps|exact Hs].
Qed.

Definition kills (q : list str) (o : op) : Prop :=
  match o with
  | OPDelete c pat => check_read_only pat c = None /\ wf_pat (kseg_parse pat) = true /\ store_match (kseg_parse pat) q = true
  | _ => False
  end.

Lemma run_kills q ops : forall s,
  Inv s -> Forall elem ops -> Forall (spares q) ops -> Exists (kills q) ops -> abs (final s ops) q = None.
Proof.
  induction ops as [|o ops IH]; intros s HI He Hs Hk; [inversion Hk|].
  apply Forall_cons_iff in He as (He & Hes). apply Forall_cons_iff in Hs as (Hs & Hss).
  destruct (step_write s o HI (elem_any o He) (spares_imp q o Hs)) as (HI' & Hm).
  apply Exists_cons in Hk as [Hk|Hk]; [|now apply (IH (fst (step s o)))].
  destruct (run_spares q ops _ HI' Hes Hss) as [E|E]; [|exact E].
  change (final s (o :: ops)) with (final (fst (step s o)) ops). rewrite E.
  destruct o; try contradiction. destruct Hk as (Hg & Hwf & Hq). destruct Hm as [->|(Hn & _)]; [|now elim Hn].
  cbn [data_write]. unfold pdel_write, guarded, m_pdel. now rewrite Hg, Hq.
Qed.

Lemma step_kills q s o :
  Inv s -> Forall (spares q) (snd (expand s o)) -> Exists (kills q) (snd (expand s o)) ->
  o_res (snd (step s o)) <> RCrash -> abs (fst (step s o)) q = None.
Proof.
  intros HI Hs Hk Hc. destruct (expand_runs s o (proj2 (crash_res _) Hc)) as (-> & _).
  destruct (expand_shape s o) as (Ed & _ & _ & He & _). apply run_kills; [exact (Inv_ext _ _ Ed HI)|exact He|exact Hs|exact Hk].
Qed.

(* what clients send: no forced write (a forced cset on a key without a CAS entry stores version 1 whatever the request
   carried, so its row would not be the stored entry: decide_row), none under the internal id (which the guard lets
   write the key "$SYS": guard_root) *)
Definition redb_op (o : op) : Prop :=
  match o with
  | OSet c _ _ f | OCSet c _ _ _ f => f = false /\ c <> 0
  | OImport _ => False
  | _ => True
  end.

Lemma guard_root c k : c <> 0 -> parse_segments k = Ok [s_SYS] -> check_read_only k c <> None.
Proof.
  intros Hc Hp. apply parse_segments_good in Hp as (Hs & _). unfold check_read_only. destruct k; [discriminate|].
  destruct (N.eqb_spec c 0); [contradiction|]. rewrite <- Hs. discriminate.
Qed.

Lemma root_not_server : ~ server_path [s_SYS].
Proof. intros [H|(x & [H|H])]; discriminate. Qed.

(* a path that no client may write, nor the server when a session starts or ends: every request spares it, so it stays
   empty (the root $SYS here, the empty key in RedbRecover.v) *)
Lemma expand_spares q s o :
  (forall c k, c <> 0 -> parse_segments k = Ok q -> check_read_only k c <> None) -> ~ server_path q -> redb_op o ->
  Forall (spares q) (snd (expand s o)).
Proof.
  intros Hg Hq Ho. destruct o; try contradiction; cbn [expand snd]; try (apply Forall_cons; [exact I|apply Forall_nil]).
  - apply Forall_cons; [exact (Hg c k (proj2 Ho))|apply Forall_nil].
  - apply Forall_cons; [exact (Hg c k (proj2 Ho))|apply Forall_nil].
  - destruct (N.eqb c 0 || existsb (N.eqb c) (clients s))%bool; [apply Forall_nil|].
    apply Forall_conn_ops. intros k v H Hp. elim (Hq (H _ Hp)).
  - destruct (N.eqb_spec c 0) as [|Hc]; [apply Forall_nil|]. apply Forall_end_ops; try (intros; exact I).
    + intros v Hp. apply parse_segments_good in Hp as (Hp & _). elim Hq. now left.
    + intros kv _. exact (Hg c (fst kv) Hc).
Qed.

Lemma step_closed q s o :
  (forall c k, c <> 0 -> parse_segments k = Ok q -> check_read_only k c <> None) -> ~ server_path q ->
  Inv s -> redb_op o -> o_res (snd (step s o)) <> RCrash -> abs s q = None ->
  Inv (fst (step s o)) /\ abs (fst (step s o)) q = None.
Proof.
  intros Hg Hq HI Ho Hc Hr. destruct (step_spares q s o HI (expand_spares q s o Hg Hq Ho) Hc) as (HI' & [E|E]).
  - rewrite E. auto.
  - auto.
Qed.

Definition Shape (m0 m : mstate) : Prop :=
  forall q, m q = m0 q \/ m q = None \/ exists v, m q = Some (Plain v).

Lemma end_kind_keeps cl q x o : end_kind cl o -> keeps q (fun y => y = x \/ y = None \/ exists v, y = Some (Plain v)) o.
Proof.
  intros Ho m HJ. destruct o; try contradiction; try exact HJ; cbn [data_write].
  - destruct (point_write_at c k (ins_upd k (Plain v) force) m q) as [->|(y & _ & _ & Hy & ->)]; [exact HJ|].
    unfold ins_upd in Hy. destruct (special_value_bad k _); [discriminate|].
    destruct (decide (m q) (Plain v) force) as [ex ch e'| |] eqn:Ed; try discriminate. injection Hy as <-.
    right. right. exists v. now rewrite (decide_plain _ _ _ _ _ _ Ed).
  - destruct (pdel_write_at c p m q) as [->|(_ & _ & ->)]; [exact HJ|auto].
Qed.

Theorem session_end_shape s c :
  Inv s -> o_res (snd (step s (ODisconnected c))) <> RCrash -> Shape (abs s) (abs (fst (step s (ODisconnected c)))).
Proof.
  intros HI Hc q. refine (proj2 (step_run q (fun y => y = abs s q \/ y = None \/ exists v, y = Some (Plain v)) s (ODisconnected c) HI I _ Hc (or_introl eq_refl))).
  cbn [expand]. destruct (N.eqb c 0); [apply Forall_nil|]. apply Forall_forall. intros o Ho.
  exact (end_kind_keeps c q _ o (end_ops_kind s c o Ho)).
Qed.

Lemma In_user_all s q e : Inv s -> (In (q, e) (user_all s) <-> is_user q = true /\ abs s q = Some e).
Proof.
  intros (Hw & _). unfold user_all. rewrite filter_In, (collect_spec _ _ _ _ _ Hw). cbn [app fst]. split.
  - intros ((k & -> & Hl & _) & Hu). split; [|exact Hl]. destruct k as [|k0 k]; [discriminate|exact Hu].
  - intros (Hu & Hl). split.
    + exists q. split; [reflexivity|]. split; [exact Hl|now destruct q].
    + destruct q as [|q0 q]; [discriminate|exact Hu].
Qed.

Lemma user_key_nonprefixed k p : parse_segments k = Ok p -> is_user p = true -> starts_with s_SYS_prefix k = false.
Proof.
  intros Hp Hu. destruct (starts_with s_SYS_prefix k) eqn:E; [|reflexivity].
  apply prefixed_iff in E as (y & r & Hs). destruct (parse_segments_good _ _ Hp) as (-> & _).
  rewrite Hs, is_user_first, str_eqb_refl in Hu. discriminate.
Qed.

Lemma nonprefixed_path k p :
  parse_segments k = Ok p -> starts_with s_SYS_prefix k = false -> is_user p = true \/ p = [s_SYS].
Proof.
  intros Hp Hn. destruct (parse_segments_good _ _ Hp) as (Hsp & _ & Hne).
  destruct p as [|p0 [|p1 r]]; [congruence| |].
  - destruct (str_eqb_spec p0 s_SYS) as [->|Hx]; [now right|left]. cbn. now apply Bool.negb_true_iff, str_eqb_neq.
  - left. cbn. destruct (str_eqb_spec p0 s_SYS) as [->|Hx]; [|reflexivity].
    exfalso. assert (E : starts_with s_SYS_prefix k = true); [|congruence].
    rewrite <- (join_split slash k), <- Hsp. reflexivity.
Qed.

Lemma nonprefixed_not_server k p : parse_segments k = Ok p -> starts_with s_SYS_prefix k = false -> ~ server_path p.
Proof.
  intros Hp Hn Hs. destruct (nonprefixed_path k p Hp Hn) as [Hu| ->]; [|now apply root_not_server].
  destruct Hs as [->|(x & [->| ->])]; discriminate.
Qed.

Lemma In_written s s' a :
  Inv s' ->
  (In a (written_keys s s') <->
   exists q e, is_user q = true /\ abs s' q = Some e /\ entry_eqb' (abs s q) (Some e) = false /\ a = AUpd (key_of q) e).
Proof.
  intros HI. unfold written_keys. rewrite in_flat_map. split.
  - intros ([q e] & Hm & Hin). apply (In_user_all s' q e HI) in Hm as (Hu & Hl). cbn [fst snd] in Hin.
    change (lookup (data s) q) with (abs s q) in Hin. destruct (entry_eqb' (abs s q) (Some e)) eqn:E; [destruct Hin|].
    destruct Hin as [<-|[]]. exists q, e. auto.
  - intros (q & e & Hu & Hl & E & ->). exists (q, e). split; [now apply In_user_all|]. cbn [fst snd].
    change (lookup (data s) q) with (abs s q). rewrite E. now left.
Qed.

Lemma In_removed s s' a :
  Inv s ->
  (In a (removed_keys s s') <-> exists q e, is_user q = true /\ abs s q = Some e /\ abs s' q = None /\ a = ADel (key_of q)).
Proof.
  intros HI. unfold removed_keys. rewrite in_flat_map. split.
  - intros ([q e] & Hm & Hin). apply (In_user_all s q e HI) in Hm as (Hu & Hl). cbn [fst snd] in Hin.
    change (lookup (data s') q) with (abs s' q) in Hin. destruct (abs s' q) eqn:E; [destruct Hin|].
    destruct Hin as [<-|[]]. exists q, e. auto.
  - intros (q & e & Hu & Hl & E & ->). exists (q, e). split; [now apply In_user_all|]. cbn [fst snd].
    change (lookup (data s') q) with (abs s' q). rewrite E. now left.
Qed.

Lemma Forall_removed_regs (P : raction -> Prop) c s s' : (forall k, Forall P (reg_del k)) -> Forall P (removed_regs c s s').
Proof.
  intros H. unfold removed_regs. apply Forall_filter, Forall_flat_map, Forall_forall. intros m _.
  destruct (lookup (data s') (fst m)); [constructor|apply H].
Qed.

Lemma stored_key_path s q e k p : Inv s -> abs s q = Some e -> parse_segments k = Ok p -> k = key_of q -> q = p.
Proof. intros HI Hl Hp ->. rewrite (key_of_parse s q e HI Hl) in Hp. now injection Hp. Qed.

Lemma last_written s s' k p :
  Inv s' -> parse_segments k = Ok p -> starts_with s_SYS_prefix k = false -> abs s' [s_SYS] = None ->
  last_of (row_hit k) (written_keys s s') =
  match abs s' p with Some e => if entry_eqb' (abs s p) (Some e) then None else Some (Some e) | None => None end.
Proof.
  intros HI Hp Hn Hr. pose proof (last_of_spec (row_hit k) (written_keys s s')) as H.
  destruct (last_of (row_hit k) (written_keys s s')) as [x|].
  - destruct H as (a & Hin & E). apply (In_written s s' a HI) in Hin as (q & e & _ & Hl & Ee & ->). cbn [row_hit] in E.
    destruct (str_eqb_spec k (key_of q)) as [Ek|]; [|discriminate]. injection E as <-.
    pose proof (stored_key_path s' q e k p HI Hl Hp Ek) as Eq. subst q. now rewrite Hl, Ee.
  - destruct (abs s' p) as [e|] eqn:Hl; [|reflexivity]. destruct (entry_eqb' (abs s p) (Some e)) eqn:Ee; [reflexivity|].
    assert (Hin : In (AUpd (key_of p) e) (written_keys s s')).
    { apply (In_written s s' _ HI). exists p, e. destruct (nonprefixed_path k p Hp Hn) as [Hu| ->]; [auto|congruence]. }
    apply H in Hin. cbn [row_hit] in Hin. rewrite <- (key_of_path k p Hp), str_eqb_refl in Hin. discriminate.
Qed.

Lemma last_removed s s' k p :
  Inv s -> parse_segments k = Ok p -> starts_with s_SYS_prefix k = false -> abs s [s_SYS] = None ->
  last_of (row_hit k) (removed_keys s s') = match abs s p, abs s' p with Some _, None => Some None | _, _ => None end.
Proof.
  intros HI Hp Hn Hr. pose proof (last_of_spec (row_hit k) (removed_keys s s')) as H.
  destruct (last_of (row_hit k) (removed_keys s s')) as [x|].
  - destruct H as (a & Hin & E). apply (In_removed s s' a HI) in Hin as (q & e & _ & Hl & Ee & ->). cbn [row_hit] in E.
    destruct (str_eqb_spec k (key_of q)) as [Ek|]; [|discriminate]. injection E as <-.
    pose proof (stored_key_path s q e k p HI Hl Hp Ek) as Eq. subst q. now rewrite Hl, Ee.
  - destruct (abs s p) as [e|] eqn:Hl; [|reflexivity]. destruct (abs s' p) eqn:Ee; [reflexivity|].
    assert (Hin : In (ADel (key_of p)) (removed_keys s s')).
    { apply (In_removed s s' _ HI). exists p, e. destruct (nonprefixed_path k p Hp Hn) as [Hu| ->]; [auto|congruence]. }
    apply H in Hin. cbn [row_hit] in Hin. rewrite <- (key_of_path k p Hp), str_eqb_refl in Hin. discriminate.
Qed.

Lemma entry_eqb'_true a b : entry_eqb' a b = true <-> a = b.
Proof.
  destruct a as [[x|x n]|], b as [[y|y m]|]; cbn; split; try discriminate; try reflexivity.
  - intros H. apply json_eqb_eq in H. now subst.
  - intros [= <-]. apply json_eqb_refl.
  - intros H. apply andb_true_iff in H as (H1 & H2). apply json_eqb_eq in H1. apply N.eqb_eq in H2. now subst.
  - intros [= <- <-]. now rewrite json_eqb_refl, N.eqb_refl.
Qed.

Lemma disconnected_unit s c : o_res (snd (do_disconnected s c)) <> RCrash -> o_res (snd (do_disconnected s c)) = RUnit.
Proof.
  destruct (disconnected_cases s c) as [->|(l' & g & x & _ & _ & ->)]; [intros H; now elim H|]. cbn [snd]. unfold end_out, is_crash.
  destruct (o_res (snd (run_ops _ _))) eqn:E; try reflexivity. intros H. now elim H.
Qed.

(* [track_session_end] below is this with the hypothesis [LenInv s], which C18 states and nothing needs; so it is with
   [table_tracks_any] *)
Lemma session_end_tracks s t c :
  Inv s -> tracks s t -> abs s [s_SYS] = None -> o_res (snd (step s (ODisconnected c))) = RUnit ->
  let s' := fst (step s (ODisconnected c)) in
  Inv s' /\ tracks s' (apply_all t (actions_of s (ODisconnected c))) /\ abs s' [s_SYS] = None.
Proof.
  intros HI HT Hroot Hres. cbv zeta.
  assert (Hc : o_res (snd (step s (ODisconnected c))) <> RCrash) by (rewrite Hres; discriminate).
  destruct (step_closed [s_SYS] s (ODisconnected c) guard_root root_not_server HI I Hc Hroot) as (HI' & Hroot').
  pose proof (session_end_shape s c HI Hc) as HS.
  split; [exact HI'|]. split; [|exact Hroot']. unfold actions_of. rewrite Hres.
  set (s' := fst (step s (ODisconnected c))) in *. intros k p Hp Hn.
  rewrite apply_all_row, !last_of_app, (last_written s s' k p HI' Hp Hn Hroot'), (last_row_regs k _ (Forall_removed_regs _ c s s' reg_del_regs)),
    (last_removed s s' k p HI Hp Hn Hroot), (HT k p Hp Hn). cbn [last_of row_hit].
  destruct (HS p) as [E|[E|(v & E)]]; rewrite E.
  - destruct (abs s p) as [e|]; [|reflexivity]. now rewrite (proj2 (entry_eqb'_true _ _) eq_refl).
  - now destruct (abs s p).
  - destruct (entry_eqb' (abs s p) (Some (Plain v))) eqn:Ee; [|reflexivity]. apply entry_eqb'_true in Ee. now rewrite Ee.
Qed.

Theorem track_session_end s t c :
  Inv s -> LenInv s -> tracks s t -> abs s [s_SYS] = None ->
  o_res (snd (step s (ODisconnected c))) = RUnit ->
  let s' := fst (step s (ODisconnected c)) in
  Inv s' /\ tracks s' (apply_all t (actions_of s (ODisconnected c))) /\ abs s' [s_SYS] = None.
Proof. intros HI _. now apply session_end_tracks. Qed.

Lemma track_silent s t o :
  silent o -> Inv s -> tracks s t -> o_res (snd (step s o)) <> RCrash ->
  tracks (fst (step s o)) (apply_all t (actions_of s o)).
Proof.
  intros Ho HI HT Hc k p Hp Hn.
  rewrite (actions_of_silent s o Ho), (silent_frame s o p Ho HI Hc (nonprefixed_not_server k p Hp Hn)). now apply HT.
Qed.

Theorem track_any_step s t o :
  Inv s -> tracks s t -> abs s [s_SYS] = None -> redb_op o -> o_res (snd (step s o)) <> RCrash ->
  let s' := fst (step s o) in
  Inv s' /\ tracks s' (apply_all t (actions_of s o)) /\ abs s' [s_SYS] = None.
Proof.
  intros HI HT Hr Ho Hnc. cbv zeta. destruct (step_closed [s_SYS] s o guard_root root_not_server HI Ho Hnc Hr) as (HI' & Hr').
  split; [exact HI'|]. split; [|exact Hr'].
  destruct o; try contradiction; try (now apply track_silent).
  - destruct Ho as (-> & _). exact (proj2 (track_insert s t c k (Plain v) HI HT Hnc)).
  - destruct Ho as (-> & _). exact (proj2 (track_insert s t c k (Cas v ver) HI HT Hnc)).
  - exact (proj2 (track_delete s t c k HI HT)).
  - exact (proj2 (track_pdelete s t c p HI HT)).
  - exact (proj1 (proj2 (session_end_tracks s t c HI HT Hr (disconnected_unit s c Hnc)))).
Qed.

Fixpoint any_actions (s : core) (os : list op) : list raction :=
  match os with [] => [] | o :: r => actions_of s o ++ any_actions (fst (step s o)) r end.

(* a fact about the state, the tables and the rest of the history that every request carries along *)
Lemma actions_fold (P : core -> tables -> list op -> Prop) :
  (forall s t o os, P s t (o :: os) -> P (fst (step s o)) (apply_all t (actions_of s o)) os) ->
  forall os s t, P s t os -> P (final s os) (apply_all t (any_actions s os)) [].
Proof.
  intros Hstep. induction os as [|o os IH]; intros s t H; [exact H|].
  cbn [any_actions]. rewrite apply_all_app. apply (IH (fst (step s o))), Hstep, H.
Qed.

(* C18 for requests of every kind but import; CAS rows are one version behind ([row_of], known finding F13) *)
Theorem table_tracks_any os : forall s t,
  Inv s -> LenInv s -> tracks s t -> abs s [s_SYS] = None -> Forall redb_op os -> no_crash_run s os ->
  Inv (final s os) /\ tracks (final s os) (apply_all t (any_actions s os)).
Proof.
  intros s t HI _ HT Hr Ho Hnc.
  apply (actions_fold (fun s t os => (Inv s /\ tracks s t) /\ abs s [s_SYS] = None /\ Forall redb_op os /\ no_crash_run s os));
    [|tauto].
  clear. intros s t o os ((HI & HT) & Hr & Ho & Hc & Hnc). apply Forall_cons_iff in Ho as (Ho & Hos).
  destruct (track_any_step s t o HI HT Hr Ho Hc) as (HI' & HT' & Hr'). tauto.
Qed.

Theorem table_tracks_any_init os :
  Forall redb_op os -> no_crash_run init os ->
  tracks (final init os) (apply_all t_empty (any_actions init os)).
Proof. intros Ho Hnc. now apply (table_tracks_any os init t_empty Inv_init eq_refl tracks_init (abs_init _)). Qed.
