(* C18: the table on disk follows the store request by request.  For every history of client set / cset / delete /
   pdelete requests (accepted or refused, any keys), after all queued actions have been applied the row of every user
   key is the stored entry -- with the CAS version the REQUEST carried, one behind the stored one (known finding F13). *)
From Coq Require Import List.
Import ListNotations.
From WB Require Import Base.ListFacts Base.Str Base.StrFacts Base.Json Model.Key Model.Consts Model.Store Model.Match Model.Entry Model.Core
  Model.Persist Model.Redb Spec.MapSpec Proofs.StoreFacts Proofs.GoodNames Proofs.CoreFacts Proofs.RedbFacts.
Local Open Scope N_scope.

Fixpoint kv_get {V} (k : str) (l : list (str * V)) : option V :=
  match l with [] => None | (k', v) :: l' => if str_eqb k k' then Some v else kv_get k l' end.

Lemma kv_get_set {V} k k' (v : V) l : kv_get k' (kv_set k v l) = if str_eqb k' k then Some v else kv_get k' l.
Proof.
  induction l as [|[k0 v0] l IH]; cbn [kv_set kv_get]; [reflexivity|].
  destruct (str_eqb_spec k k0) as [<-|Hne]; cbn [kv_get]; [now destruct (str_eqb k' k)|].
  rewrite IH. destruct (str_eqb_spec k' k0) as [->|]; [|reflexivity]. destruct (str_eqb_spec k0 k); [now elim Hne|reflexivity].
Qed.

Lemma kv_get_del {V} k k' (l : list (str * V)) : kv_get k' (kv_del k l) = if str_eqb k' k then None else kv_get k' l.
Proof.
  unfold kv_del. induction l as [|[k0 v0] l IH]; cbn [filter kv_get fst]; [now destruct (str_eqb k' k)|].
  destruct (str_eqb_spec k k0) as [<-|Hne]; cbn [negb kv_get]; rewrite IH; [now destruct (str_eqb k' k)|].
  destruct (str_eqb_spec k' k0) as [->|]; [|reflexivity]. destruct (str_eqb_spec k0 k); [now elim Hne|reflexivity].
Qed.

Lemma kv_get_In {V} k (l : list (str * V)) v : kv_get k l = Some v -> In (k, v) l.
Proof.
  induction l as [|[k' v'] l IH]; [discriminate|]. cbn [kv_get].
  destruct (str_eqb_spec k k') as [->|]; [intros [= ->]; now left|right; now apply IH].
Qed.

Lemma kv_get_notin {V} k (l : list (str * V)) : ~ In k (map fst l) -> kv_get k l = None.
Proof. intros H. destruct (kv_get k l) as [v|] eqn:E; [|reflexivity]. elim H. exact (in_map fst _ _ (kv_get_In _ _ _ E)). Qed.

Lemma kv_set_in {V} k (v : V) l x : In x (kv_set k v l) -> x = (k, v) \/ In x l.
Proof.
  induction l as [|[k' v'] l IH]; cbn [kv_set]; [intros [<-|[]]; now left|].
  destruct (str_eqb k k'); intros [<-|H]; auto. { right. now right. } { right. now left. }
  destruct (IH H); auto. right. now right.
Qed.

Lemma kv_set_nodup {V} k (v : V) l : NoDup (map fst l) -> NoDup (map fst (kv_set k v l)).
Proof.
  induction l as [|[k' v'] l IH]; intros H; cbn [kv_set map fst]; [repeat constructor; intros []|].
  cbn [map fst] in H. apply NoDup_cons_iff in H as (H1 & H2).
  destruct (str_eqb_spec k k') as [->|Hne]; cbn [map fst]; [now constructor|].
  constructor; [|now apply IH]. intros Hin. apply in_map_iff in Hin as ([x v2] & <- & Hin).
  apply kv_set_in in Hin as [[= -> ->]|Hin]; [now elim Hne|]. exact (H1 (in_map fst _ _ Hin)).
Qed.

(* the row of an entry: the request's version is one behind the stored one *)
Definition row_of (e : entry) : entry := match e with Cas v n => Cas v (n - 1) | Plain v => Plain v end.

Definition tracks (s : core) (t : tables) : Prop :=
  forall k p, parse_segments k = Ok p -> starts_with s_SYS_prefix k = false ->
    kv_get k (t_v2 t) = option_map row_of (abs s p).

Lemma parse_inj k k' p : parse_segments k = Ok p -> parse_segments k' = Ok p -> k = k'.
Proof. intros H H'. now rewrite (key_of_path k p H), (key_of_path k' p H'). Qed.

Lemma key_of_parse s q e : Inv s -> abs s q = Some e -> parse_segments (key_of q) = Ok q.
Proof. intros HI Hl. destruct (stored_key_good s q e HI Hl) as (Hne & Hg). now apply parse_join_good. Qed.

Lemma existsb_removed s pat k :
  Inv s ->
  existsb (fun kv => str_eqb k (fst kv)) (map kv_of (collect (data s) [] pat)) =
  match abs s (split slash k) with Some _ => store_match pat (split slash k) | None => false end.
Proof.
  intros HI. pose proof HI as (Hw & _). destruct (existsb _ _) eqn:Ex.
  - apply existsb_exists in Ex as (kv & Hin & Ek). apply str_eqb_eq in Ek.
    apply in_map_iff in Hin as ([q e] & <- & Hin). cbn [kv_of fst] in Ek.
    apply (collect_spec _ _ _ _ _ Hw) in Hin as (q' & -> & Hl & Hm). cbn [app] in *.
    pose proof (parse_segments_good _ _ (key_of_parse s q' e HI Hl)) as (Hq & _).
    rewrite Ek, <- Hq. unfold abs. now rewrite Hl, Hm.
  - destruct (abs s (split slash k)) as [e|] eqn:Ea; [|reflexivity]. destruct (store_match pat (split slash k)) eqn:Em; [|reflexivity].
    exfalso. apply Bool.not_true_iff_false in Ex. apply Ex. apply existsb_exists. exists (kv_of (split slash k, e)). split.
    + apply in_map. apply (collect_spec _ _ _ _ _ Hw). exists (split slash k). auto.
    + cbn [kv_of fst]. unfold key_of. rewrite join_split. apply str_eqb_refl.
Qed.

Definition is_reg_act (a : raction) : Prop := match a with AGG _ _ | ALW _ _ => True | _ => False end.

Lemma upd_action_user c k e : starts_with s_SYS_prefix k = false -> upd_action c k e = [AUpd k e].
Proof. intros H. unfold upd_action. now rewrite H. Qed.

Lemma upd_action_sys c k e : starts_with s_SYS_prefix k = true -> Forall is_reg_act (upd_action c k e).
Proof.
  intros H. unfold upd_action. rewrite H. destruct c; [|constructor].
  destruct (is_reg_topic s_graveGoods k); [repeat constructor|]. destruct (is_reg_topic s_lastWill k); repeat constructor.
Qed.

Inductive reg := GG | LW.
Definition reg_val (r : reg) : Type := match r with GG => list str | LW => list (str * json) end.
Definition reg_leaf (r : reg) : str := match r with GG => s_graveGoods | LW => s_lastWill end.
Definition reg_act (r : reg) : cid -> option (reg_val r) -> raction := match r with GG => AGG | LW => ALW end.

Lemma reg_del_shape k a :
  In a (reg_del k) ->
  exists r a0 x c, split slash k = [a0; s_clients; x; reg_leaf r] /\ client_of_str x = Some c /\ a = reg_act r c None.
Proof.
  unfold reg_del. destruct (split slash k) as [|a0 [|b [|x [|d [|? ?]]]]]; try (intros []).
  destruct (str_eqb_spec b s_clients) as [->|]; [|intros []]. destruct (client_of_str x) as [c|] eqn:EX; [|intros []].
  destruct (str_eqb_spec d s_graveGoods) as [->|]; [intros [<-|[]]; now exists GG, a0, x, c|].
  destruct (str_eqb_spec d s_lastWill) as [->|]; [intros [<-|[]]; now exists LW, a0, x, c|intros []].
Qed.

Lemma reg_del_regs k : Forall is_reg_act (reg_del k).
Proof. apply Forall_forall. intros a Ha. apply reg_del_shape in Ha as (r & a0 & x & c & _ & _ & ->). now destruct r. Qed.

Lemma del_action_user c k : starts_with s_SYS_prefix k = false -> del_action c k = [ADel k].
Proof. intros H. unfold del_action. now rewrite H. Qed.

Lemma del_action_sys c k : starts_with s_SYS_prefix k = true -> del_action c k = if N.eqb c 0 then [] else reg_del k.
Proof. intros H. unfold del_action. now rewrite H. Qed.

Lemma del_action_regs c k : starts_with s_SYS_prefix k = true -> Forall is_reg_act (del_action c k).
Proof. intros H. rewrite (del_action_sys c k H). destruct (N.eqb c 0); [constructor|apply reg_del_regs]. Qed.

(* the last action on a key decides its row *)
Definition row_hit (k : str) (a : raction) : option (option entry) :=
  match a with
  | AUpd k' e => if str_eqb k k' then Some (Some e) else None
  | ADel k' => if str_eqb k k' then Some None else None
  | AClear => Some None
  | _ => None
  end.

Lemma apply_all_row k t acts :
  kv_get k (t_v2 (apply_all t acts)) = match last_of (row_hit k) acts with Some x => x | None => kv_get k (t_v2 t) end.
Proof.
  apply (fold_left_last apply_action (fun t => kv_get k (t_v2 t)) (row_hit k)). clear. intros t a.
  destruct a as [k' e|k'|c [g|]|c [l|]|]; cbn [apply_action t_v2 row_hit]; try reflexivity.
  - rewrite kv_get_set. now destruct (str_eqb k k').
  - rewrite kv_get_del. now destruct (str_eqb k k').
Qed.

Lemma last_row_regs k acts : Forall is_reg_act acts -> last_of (row_hit k) acts = None.
Proof. intros H. apply last_of_none. eapply Forall_impl; [|exact H]. intros a Ha. now destruct a. Qed.

Lemma last_row_del c k k2 :
  starts_with s_SYS_prefix k2 = false -> last_of (row_hit k2) (del_action c k) = if str_eqb k2 k then Some None else None.
Proof.
  intros H2. destruct (starts_with s_SYS_prefix k) eqn:Epre.
  - rewrite last_row_regs by now apply del_action_regs. destruct (str_eqb_spec k2 k); [congruence|reflexivity].
  - rewrite (del_action_user c k Epre). reflexivity.
Qed.

Lemma decide_row cur e ex ch e' : decide cur e false = DOk ex ch e' -> row_of e' = e.
Proof.
  destruct e as [v|v n]; intros H; [now rewrite (decide_plain _ _ _ _ _ _ H)|].
  rewrite (decide_cas _ _ _ _ _ _ _ H). unfold cset_result, row_of. f_equal. apply N.add_sub.
Qed.

Lemma track_insert s t c k e :
  Inv s -> tracks s t -> o_res (snd (do_insert s c k e false)) <> RCrash ->
  Inv (fst (do_insert s c k e false)) /\
  tracks (fst (do_insert s c k e false))
         (apply_all t (match o_res (snd (do_insert s c k e false)) with RUnit => upd_action (Some c) k e | _ => [] end)).
Proof.
  intros HI HT Hnc. pose proof (do_insert_effect s c k e false HI) as H. cbv zeta in H.
  destruct (o_res (snd (do_insert s c k e false))) eqn:Er; try contradiction.
  - destruct H as (p & ex & ch & e' & Hp & Hd & HI' & Hm). split; [exact HI'|].
    intros k2 p2 Hp2 Hpre2. rewrite apply_all_row, (Hm p2). destruct (starts_with s_SYS_prefix k) eqn:Epre.
    + rewrite (last_row_regs _ _ (upd_action_sys (Some c) k e Epre)), m_set_neq; [now apply HT|].
      intros <-. rewrite (parse_inj _ _ _ Hp Hp2) in Epre. congruence.
    + rewrite (upd_action_user _ k e Epre). cbn [last_of row_hit]. destruct (str_eqb_spec k2 k) as [->|Hne].
      * rewrite Hp in Hp2. injection Hp2 as <-. rewrite m_set_eq. cbn [option_map]. now rewrite (decide_row _ _ _ _ _ Hd).
      * rewrite m_set_neq; [now apply HT|]. intros <-. exact (Hne (parse_inj _ _ _ Hp2 Hp)).
  - rewrite H. split; [exact HI|exact HT].
Qed.

Lemma track_delete s t c k :
  Inv s -> tracks s t ->
  Inv (fst (do_delete s c k)) /\
  tracks (fst (do_delete s c k)) (apply_all t (match o_res (snd (do_delete s c k)) with RValue _ => del_action c k | _ => [] end)).
Proof.
  intros HI HT. pose proof (do_delete_effect s c k HI) as H. cbv zeta in H.
  destruct (o_res (snd (do_delete s c k))) eqn:Er; try contradiction.
  - destruct H as (p & e & Hp & _ & _ & HI' & Hm). split; [exact HI'|].
    intros k2 p2 Hp2 Hpre2. rewrite apply_all_row, (Hm p2), (last_row_del c k k2 Hpre2).
    destruct (str_eqb_spec k2 k) as [->|Hne].
    + rewrite Hp in Hp2. injection Hp2 as <-. now rewrite m_del_eq.
    + rewrite m_del_neq; [now apply HT|]. intros <-. exact (Hne (parse_inj _ _ _ Hp2 Hp)).
  - destruct H as (HI' & Hm). split; [exact HI'|]. intros k2 p2 Hp2 Hpre2. rewrite (Hm p2). now apply HT.
Qed.

Lemma track_pdelete s t c pat :
  Inv s -> tracks s t ->
  Inv (fst (do_pdelete s c false pat)) /\
  tracks (fst (do_pdelete s c false pat))
         (apply_all t (match o_res (snd (do_pdelete s c false pat)) with RKvs l => flat_map (fun kv => del_action c (fst kv)) l | _ => [] end)).
Proof.
  intros HI HT. pose proof (do_pdelete_effect s c pat HI) as H. cbv zeta in H.
  destruct (o_res (snd (do_pdelete s c false pat))) eqn:Er; try contradiction.
  - destruct H as (HI' & Hm & ->). split; [exact HI'|]. intros k2 p2 Hp2 Hpre2.
    rewrite apply_all_row, (last_of_flat_map _ _ (fun kv => str_eqb k2 (fst kv)) None) by (intros; now apply last_row_del).
    destruct (parse_segments_good _ _ Hp2) as (Esp & _).
    rewrite (existsb_removed s _ k2 HI), <- Esp, (Hm p2), (HT k2 p2 Hp2 Hpre2). unfold m_pdel.
    destruct (abs s p2); destruct (store_match (kseg_parse pat) p2); reflexivity.
  - rewrite H. split; [exact HI|exact HT].
Qed.

Inductive cwrite' := WSet' (c : cid) (k : str) (v : json) | WCSet' (c : cid) (k : str) (v : json) (n : N)
                   | WDel' (c : cid) (k : str) | WPDel' (c : cid) (pat : str).
Definition op_of' (w : cwrite') : op :=
  match w with WSet' c k v => OSet c k v false | WCSet' c k v n => OCSet c k v n false | WDel' c k => ODelete c k | WPDel' c pat => OPDelete c pat end.

Theorem track_step s t w :
  Inv s -> tracks s t -> o_res (snd (step s (op_of' w))) <> RCrash ->
  Inv (fst (step s (op_of' w))) /\ tracks (fst (step s (op_of' w))) (apply_all t (actions_of s (op_of' w))).
Proof.
  intros HI HT Hnc. destruct w as [c k v|c k v n|c k|c pat].
  - exact (track_insert s t c k (Plain v) HI HT Hnc).
  - exact (track_insert s t c k (Cas v n) HI HT Hnc).
  - exact (track_delete s t c k HI HT).
  - exact (track_pdelete s t c pat HI HT).
Qed.

Fixpoint wrun (s : core) (ws : list cwrite') : core * list raction :=
  match ws with
  | [] => (s, [])
  | w :: ws' => let '(s', acts) := wrun (fst (step s (op_of' w))) ws' in (s', actions_of s (op_of' w) ++ acts)
  end.
Fixpoint wnocrash (s : core) (ws : list cwrite') : Prop :=
  match ws with [] => True | w :: ws' => o_res (snd (step s (op_of' w))) <> RCrash /\ wnocrash (fst (step s (op_of' w))) ws' end.

Theorem table_tracks_store ws : forall s t,
  Inv s -> tracks s t -> wnocrash s ws ->
  let '(s', acts) := wrun s ws in Inv s' /\ tracks s' (apply_all t acts).
Proof.
  induction ws as [|w ws IH]; intros s t HI HT Hnc; [cbn; split; assumption|].
  destruct Hnc as [Hc Hrest]. cbn [wrun].
  destruct (track_step s t w HI HT Hc) as [HI1 HT1].
  specialize (IH _ _ HI1 HT1 Hrest). destruct (wrun (fst (step s (op_of' w))) ws) as [s' acts].
  now rewrite apply_all_app.
Qed.

Theorem tracks_init : tracks init t_empty.
Proof. intros k p _ _. unfold abs. cbn. destruct p; reflexivity. Qed.
