(* The REST front end (Model/Rest.v): nothing is served without a valid token, a request outside the grant has no
   effect, an import never reaches $SYS (repair of F29), a get answers from the store. *)
From Coq Require Import List.
Import ListNotations.
From WB Require Import Base.Str Base.StrFacts Base.Json Model.Key Model.Consts Model.Store Model.Entry Model.Core Model.Auth
  Model.Rest Spec.MapSpec Proofs.StoreFacts Proofs.CoreFacts Proofs.C01Proof.
Local Open Scope N_scope.

(* with an auth key configured: no token, or one that does not validate -- the request is refused before any handler *)
Theorem rest_no_service_before_token tok s r :
  tok = TNone \/ tok = TInvalid ->
  exists st, rest_handle true tok s r = (s, out_res RUnit, RStatus st) /\ (st = 401 \/ st = 403).
Proof. intros [-> | ->]; cbn; eauto. Qed.

Theorem rest_denied_is_noop cl s r :
  authorize cl (fst (rest_requirement r)) (snd (rest_requirement r)) = false ->
  rest_handle true (TClaims cl) s r = (s, out_res RUnit, RStatus 403).
Proof. intros H. unfold rest_handle. destruct (rest_requirement r) as [p pat]. cbn [fst snd] in H. now rewrite H. Qed.

Theorem rest_granted_is_served cl s r :
  authorize cl (fst (rest_requirement r)) (snd (rest_requirement r)) = true ->
  rest_handle true (TClaims cl) s r = rest_handle false TNone s r.
Proof. intros H. unfold rest_handle. destruct (rest_requirement r) as [p pat]. cbn [fst snd] in H. now rewrite H. Qed.

Theorem import_keeps_sys s j q :
  Inv s -> import_ok (OImport j) -> abs (fst (do_import s j)) (s_SYS :: q) = abs s (s_SYS :: q).
Proof.
  intros HI Himp. pose proof (do_import_effect s j HI Himp) as H. cbv zeta in H.
  destruct (o_res (snd (do_import s j))); try contradiction.
  - destruct H as (other & _ & _ & Hm). rewrite Hm. unfold m_import. now rewrite lookup_strip_sys, str_eqb_refl.
  - now rewrite H.
Qed.

Theorem rest_import_keeps_sys auth tok s j q :
  Inv s -> import_ok (OImport j) ->
  abs (fst (fst (rest_handle auth tok s (RImport j)))) (s_SYS :: q) = abs s (s_SYS :: q).
Proof.
  intros HI Himp. pose proof (import_keeps_sys s j q HI Himp) as H. unfold rest_handle.
  destruct (if auth then _ else _) as [st|]; [reflexivity|]. cbn [rest_op step]. now destruct (do_import s j).
Qed.

(* a get over REST answers from the store: 200 with the stored value, 404 where there is none, 400 for a key with a wildcard *)
Theorem rest_get_is_store s k :
  rest_handle false TNone s (RGet k) =
  (s, out_res (do_get s k),
   match parse_segments k with
   | Err code => RStatus (http_status code)
   | Ok p => match abs s p with Some e => R200 (BJson (entry_val e)) | None => RStatus 404 end
   end).
Proof.
  unfold rest_handle. cbn [rest_op step]. unfold do_get, abs. destruct (parse_segments k) as [p|code]; [|reflexivity].
  destruct (lookup (data s) p); reflexivity.
Qed.

(* the hypotheses are satisfiable: the very import of F29 *)
Example import_keeps_sys_demo :
  let s0 := fst (step init (OSet 0 [36;83;89;83;47;118] (JStr [120]) true)) in          (* $SYS/v = "x", set by the server *)
  let j := JObj [(s_data, JObj [(s_t, JObj [(s_SYS, JObj [(s_t, JObj [([118], JObj [(s_v, JStr [101])])])]); ([117], JObj [(s_v, JNum [49])])])])] in
  let s1 := fst (fst (rest_handle false TNone s0 (RImport j))) in
  abs s1 [s_SYS; [118]] = Some (Plain (JStr [120])) /\ abs s1 [[117]] = Some (Plain (JNum [49])).
Proof. vm_compute. split; reflexivity. Qed.
