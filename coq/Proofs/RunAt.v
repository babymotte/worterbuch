(* What one path of the map holds along a run of requests.  A property [J] of the entry at a path [q] that every
   write of a run keeps ([keeps]: a fact about the write function alone, Writes.v) holds at the end of the run
   ([run_at]), and after a request of any kind, which is the run of the elementary requests it expands to
   ([step_run]: StreamAll.expand, the only place that needs "no crash"). *)
From Coq Require Import List.
Import ListNotations.
From WB Require Import Base.Str Model.Key Model.Store Model.Entry Model.Core Spec.MapSpec Proofs.Frame Proofs.CoreFacts Proofs.C01Proof
  Proofs.SessionEnd Proofs.StreamAll Proofs.Writes.
Local Open Scope N_scope.

Lemma elem_any o : elem o -> any_req o.
Proof. destruct o; try contradiction; intros _; first [left; exact I|right; exact I]. Qed.

Section RunAt.
  Variables (q : list str) (J : option entry -> Prop).

  Definition keeps (o : op) : Prop := forall m, J (m q) -> J (data_write o m q).

  Lemma run_at ops : forall s,
    Inv s -> Forall elem ops -> Forall import_ok ops -> Forall keeps ops -> J (abs s q) ->
    Inv (final s ops) /\ J (abs (final s ops) q).
  Proof.
    induction ops as [|o ops IH]; intros s HI He Hi Hk HJ; [now split|].
    apply Forall_cons_iff in He as (He & Hes). apply Forall_cons_iff in Hi as (Hi & His). apply Forall_cons_iff in Hk as (Hk & Hks).
    destruct (step_write s o HI (elem_any o He) Hi) as (HI' & Hm). apply (IH (fst (step s o))); try assumption.
    destruct Hm as [Hm|(_ & Hm)]; rewrite Hm; [now apply Hk|exact HJ].
  Qed.

  Lemma step_run s o :
    Inv s -> import_ok o -> Forall keeps (snd (expand s o)) -> o_res (snd (step s o)) <> RCrash -> J (abs s q) ->
    Inv (fst (step s o)) /\ J (abs (fst (step s o)) q).
  Proof.
    intros HI Hi Hk Hc HJ. destruct (expand_runs s o (proj2 (crash_res _) Hc)) as (-> & _).
    destruct (expand_shape s o) as (Ed & _ & _ & He & His).
    apply run_at; [exact (Inv_ext _ _ Ed HI)|exact He|exact (His Hi)|exact Hk|now rewrite (abs_ext _ _ Ed)].
  Qed.
End RunAt.

Lemma keeps_same q x o : (forall m, data_write o m q = m q) -> keeps q (fun y => y = x) o.
Proof. intros H m <-. apply H. Qed.

Lemma expand_disconnected s c : c <> 0 -> snd (expand s (ODisconnected c)) = end_ops s c.
Proof. intros Hc. cbn [expand]. now rewrite (proj2 (N.eqb_neq c 0) Hc). Qed.
