(* Session end as a run of ordinary requests.  Worterbuch::disconnected, once the client's publish streams,
   locks and its entry in the client list are gone, is exactly the following requests, in this order, each
   once: the internal update of $SYS/clients, an unsubscribe for each of the client's subscriptions and
   ls-subscriptions, the internal removal of $SYS/clients/<id>/#, a pattern delete UNDER THE CLIENT'S ID for
   each of its grave goods, a forced set UNDER THE CLIENT'S ID for each key of its last will.  Everything
   proved about requests (C01, C03, C04, C05, C08) therefore applies to a session end.  The equation is
   [disconnected_eq]; [disconnected_run] is its case without a crash.  A relation between a state and what a run
   from it returns that holds of the single requests and composes through [seq2] therefore holds of a session start
   and a session end, once it is carried from the state the requests start in back to [s] and through the wrapping
   of the answer ([connected_lifts], [disconnected_lifts]; [session_preserves] is the case of a property of the
   state).  The last part reads the subscription, publish-stream,
   lock and client tables after a session end off the run ([disconnected_tables]). *)
From WB Require Import Base.Str Base.Json Model.Key Model.Consts Model.Store Model.Subs Model.Entry Model.Core Proofs.Frame.

Definition evs_of (outs : list output) : list (N * event) := flat_map o_events outs.
Definition lss_of (outs : list output) : list (N * list str) := flat_map o_ls outs.

Definition gg_of (s : core) (c : cid) : list str :=
  match (match do_get s (topic [s_SYS; s_clients; client_str c; s_graveGoods]) with
         | RValue v => dec_grave_goods v | _ => None end) with Some l => l | None => [] end.
Definition lw_of (s : core) (c : cid) : list (str * json) :=
  match (match do_get s (topic [s_SYS; s_clients; client_str c; s_lastWill]) with
         | RValue v => dec_last_will v | _ => None end) with Some l => l | None => [] end.

Definition ids_of {V} (c : cid) (tab : list ((N * N) * V)) : list (N * N) :=
  filter (fun id => N.eqb (fst id) c) (map fst tab).

Definition end_ops (s : core) (c : cid) : list op :=
  [OSet 0 (topic [s_SYS; s_clients])
        (jnum (N.of_nat (length (filter (fun x => negb (N.eqb x c)) (clients s))))) true]
  ++ map (fun id => OUnsubscribe (fst id) (snd id)) (ids_of c (subscriptions s))
  ++ map (fun id => OUnsubscribeLs (fst id) (snd id)) (ids_of c (ls_subscriptions s))
  ++ [OPDelete 0 (topic [s_SYS; s_clients; client_str c; s_hash])]
  ++ map (fun g => OPDelete c g) (gg_of s c)
  ++ map (fun kv => OSet c (fst kv) (snd kv) true) (lw_of s c).

(* the state in which those requests run *)
Definition prep (s : core) (c : cid) : core :=
  let s0 := set_spub s (filter (fun kv => negb (N.eqb (fst (fst kv)) c)) (spub_keys s)) in
  let '(l', _, _, _) :=
    match assoc_get N.eqb c (locked_keys s0) with
    | Some paths => unlock_paths (locks s0) c paths
    | None => (locks s0, [], [], false)
    end in
  let s1 := set_locks s0 l' (assoc_del N.eqb c (locked_keys s0)) (next_req s0) in
  set_clients s1 (filter (fun x => negb (N.eqb x c)) (clients s1)).

(* Store::unlock_all for the ending client *)
Definition unlock_all (s : core) (c : cid) : node lock * list N * list N * bool :=
  match assoc_get N.eqb c (locked_keys s) with
  | Some paths => unlock_paths (locks s) c paths
  | None => (locks s, [], [], false)
  end.

Definition end_out (granted cancelled : list N) (o : output) : output :=
  if is_crash o then o
  else Output RUnit (o_events o) (o_ls o) (granted ++ o_granted o) (cancelled ++ o_cancelled o).

Lemma prep_eq s c l' g x cr :
  unlock_all s c = (l', g, x, cr) ->
  prep s c = set_clients (set_locks (set_spub s (filter (fun kv => negb (N.eqb (fst (fst kv)) c)) (spub_keys s)))
                                    l' (assoc_del N.eqb c (locked_keys s)) (next_req s))
                         (filter (fun x => negb (N.eqb x c)) (clients s)).
Proof. intros E. unfold prep. cbv zeta. change (match assoc_get _ _ _ with Some _ => _ | None => _ end) with (unlock_all s c). now rewrite E. Qed.

Lemma prep_same s c :
  data (prep s c) = data s /\ len (prep s c) = len s /\ subs (prep s c) = subs s /\
  subscriptions (prep s c) = subscriptions s /\ lssubs (prep s c) = lssubs s /\
  ls_subscriptions (prep s c) = ls_subscriptions s /\ next_inst (prep s c) = next_inst s.
Proof. destruct (unlock_all s c) as [[[l' g] x] cr] eqn:E. rewrite (prep_eq s c _ _ _ _ E). repeat split. Qed.

(* [end_ops] reads the client's subscriptions, ls-subscriptions, grave goods and last will off [s], while the code
   looks each of them up when its turn comes.  The two agree because the requests that run before a table is read do
   not write it: a data request leaves both subscription tables alone, an unsubscribe the ls-subscriptions. *)
Lemma data_request_keeps_tables s o :
  part_of o = PData ->
  subscriptions (fst (step s o)) = subscriptions s /\ ls_subscriptions (fst (step s o)) = ls_subscriptions s.
Proof. intros E. pose proof (step_frame s o) as H. rewrite E in H. destruct H as (d & n & ->). now split. Qed.

Lemma unsubs_keep_ls ids s :
  ls_subscriptions (fst (run_ops (map (fun id => OUnsubscribe (fst id) (snd id)) ids) s)) = ls_subscriptions s.
Proof.
  apply (run_ops_preserves (fun s' => ls_subscriptions s' = ls_subscriptions s)); [|reflexivity].
  intros s0 o Ho E. apply in_map_iff in Ho as (id & <- & _).
  destruct (step_frame s0 (OUnsubscribe (fst id) (snd id))) as (t & m & ni & ->). exact E.
Qed.

(* the model's [do_disconnected] with its run of requests named *)
Theorem disconnected_eq s c :
  do_disconnected s c =
  if N.eqb c 0 then (s, out_res RCrash) else
  let '(l', g, x, cr) := unlock_all s c in
  if cr then (s, out_res RCrash)
  else (fst (run_ops (end_ops s c) (prep s c)), end_out g x (snd (run_ops (end_ops s c) (prep s c)))).
Proof.
  unfold do_disconnected. destruct (N.eqb c 0); [reflexivity|]. cbv zeta.
  change (match assoc_get _ _ _ with Some _ => _ | None => _ end) with (unlock_all s c).
  destruct (unlock_all s c) as [[[l' g] x] [|]] eqn:E; [reflexivity|].
  cbn [next_req set_spub locked_keys clients set_locks].
  match goal with |- (fst ?a, _) = _ => set (r := a) end.
  enough (Er : r = run_ops (end_ops s c) (prep s c)).
  { clearbody r. now subst r. }
  unfold r. clear r. rewrite (prep_eq s c _ _ _ _ E).
  (* one [seq2] of the code per block of [end_ops]: peel them off one by one ([seq2_ext]); where the code reads a
     table off the running state, show that it is the table of [s] *)
  unfold end_ops, ids_of. cbn [app]. unfold run_ops at 1. cbn [iter_ops]. apply seq2_ext. fold run_ops.
  match goal with |- context [iter_ops _ _ (fst ?r)] => set (s1 := fst r) end.
  destruct (data_request_keeps_tables (prep s c) (OSet 0 (topic [s_SYS; s_clients])
              (jnum (N.of_nat (length (filter (fun x => negb (N.eqb x c)) (clients s))))) true) eq_refl) as (T1 & T2).
  rewrite (prep_eq s c _ _ _ _ E) in T1, T2. fold s1 in T1, T2. cbn [subscriptions ls_subscriptions set_clients set_locks set_spub] in T1, T2.
  rewrite T1, run_ops_app, run_ops_map. apply seq2_ext.
  match goal with |- context [iter_ops ?f ?l s1] => set (s3 := fst (iter_ops f l s1)) end.
  assert (T3 : ls_subscriptions s3 = ls_subscriptions s).
  { unfold s3. rewrite <- (run_ops_map (fun id => OUnsubscribe (fst id) (snd id))), unsubs_keep_ls. exact T2. }
  rewrite T3, run_ops_app, run_ops_map. apply seq2_ext. cbn [app]. unfold run_ops at 1. cbn [iter_ops]. apply seq2_ext. fold run_ops.
  rewrite run_ops_app, run_ops_map. apply seq2_ext. rewrite run_ops_map. reflexivity.
Qed.

Lemma disconnected_run s c l' g x :
  N.eqb c 0 = false -> unlock_all s c = (l', g, x, false) ->
  do_disconnected s c = (fst (run_ops (end_ops s c) (prep s c)), end_out g x (snd (run_ops (end_ops s c) (prep s c)))).
Proof. intros H0 E. now rewrite disconnected_eq, H0, E. Qed.

Lemma disconnected_crash s c : N.eqb c 0 = true \/ snd (unlock_all s c) = true -> do_disconnected s c = (s, out_res RCrash).
Proof.
  rewrite disconnected_eq. intros [->|H]; [reflexivity|]. destruct (N.eqb c 0); [reflexivity|].
  destruct (unlock_all s c) as [[[l' g] x] cr]. cbn [snd] in H. now rewrite H.
Qed.

Lemma disconnected_cases s c :
  do_disconnected s c = (s, out_res RCrash) \/
  exists l' g x, N.eqb c 0 = false /\ unlock_all s c = (l', g, x, false) /\
    do_disconnected s c = (fst (run_ops (end_ops s c) (prep s c)), end_out g x (snd (run_ops (end_ops s c) (prep s c)))).
Proof.
  rewrite disconnected_eq. destruct (N.eqb c 0); [now left|].
  destruct (unlock_all s c) as [[[l' g] x] [|]]; [now left|]. right. now exists l', g, x.
Qed.

Lemma disconnected_end s c :
  is_crash (snd (do_disconnected s c)) = false -> fst (do_disconnected s c) = final (prep s c) (end_ops s c).
Proof.
  intros Hc. destruct (disconnected_cases s c) as [E|(l' & g & x & _ & _ & E)]; rewrite E in Hc |- *; [discriminate|].
  cbn [fst snd] in *. apply run_ops_final.
    unfold end_out in Hc. destruct (is_crash (snd (run_ops (end_ops s c) (prep s c)))) eqn:E1; [congruence|reflexivity].
Qed.

(* the requests of a session end, coarsely: which kinds occur, and whose subscriptions go; enough wherever a fact holds of
   every set and pattern delete.  [Forall_end_ops] below gives them exactly, for facts that need the keys or the client *)
Definition end_kind (c : cid) (o : op) : Prop :=
  match o with
  | OSet _ _ _ _ | OPDelete _ _ => True
  | OUnsubscribe c' _ | OUnsubscribeLs c' _ => c' = c
  | _ => False
  end.

Lemma end_ops_kind s c o : In o (end_ops s c) -> end_kind c o.
Proof.
  unfold end_ops, ids_of. intros Hin.
  repeat (apply in_app_iff in Hin as [Hin|Hin]); try (apply in_map_iff in Hin as (x & <- & Hx)); try (destruct Hin as [<-|[]]);
    try exact I; apply filter_In in Hx as (_ & Hx); now apply N.eqb_eq.
Qed.

Lemma Forall_end_ops (P : op -> Prop) s c :
  (forall v, P (OSet 0 (topic [s_SYS; s_clients]) v true)) ->
  (forall i t, P (OUnsubscribe i t)) -> (forall i t, P (OUnsubscribeLs i t)) ->
  P (OPDelete 0 (topic [s_SYS; s_clients; client_str c; s_hash])) ->
  (forall g, In g (gg_of s c) -> P (OPDelete c g)) ->
  (forall kv, In kv (lw_of s c) -> P (OSet c (fst kv) (snd kv) true)) ->
  Forall P (end_ops s c).
Proof.
  intros H1 H2 H3 H4 H5 H6. unfold end_ops.
  repeat (apply Forall_app; split); try (apply Forall_map, Forall_forall; now auto); repeat constructor; auto.
Qed.

Section SessionLift.
  Variable R : core -> core * output -> Prop.
  Hypothesis R_same : forall s res, R s (s, out_res res).
  Hypothesis R_comp : forall s r1 r2, R s r1 -> R (fst r1) r2 -> R s (fst r2, out_app (snd r1) (snd r2)).
  Hypothesis R_step : forall c s o, end_kind c o -> R s (step s o).

  Lemma connected_lifts s c :
    (forall r, R (set_clients s (clients s ++ [c])) r -> R s (fst r, end_out [] [] (snd r))) -> R s (do_connected s c).
  Proof.
    intros Hw. unfold do_connected. destruct (N.eqb c 0); [apply R_same|]. destruct (existsb _ _); [apply R_same|].
    apply Hw. apply (seq2_lift R R_comp); [apply (seq2_lift R R_comp)|]; intros; exact (R_step 0 _ (OSet _ _ _ _) I).
  Qed.

  Lemma disconnected_lifts s c :
    (forall l' g x r, unlock_all s c = (l', g, x, false) -> R (prep s c) r -> R s (fst r, end_out g x (snd r))) ->
    R s (do_disconnected s c).
  Proof.
    intros Hw. destruct (disconnected_cases s c) as [->|(l' & g & x & _ & E & ->)]; [apply R_same|].
    apply (Hw l' g x _ E), (run_ops_lift R (fun s => R_same s RUnit) R_comp).
    intros s0 o Ho. exact (R_step c s0 o (end_ops_kind s c o Ho)).
  Qed.
End SessionLift.

Theorem session_preserves (Q : core -> Prop) :
  (forall s o, part_of o <> PSession -> Q s -> Q (fst (step s o))) ->
  (forall s cl, Q s -> Q (set_clients s cl)) -> (forall s c, Q s -> Q (prep s c)) ->
  forall s o, Q s -> Q (fst (step s o)).
Proof.
  intros Hstep Hcl Hprep s o. destruct (part_of o) eqn:P; try (apply Hstep; congruence).
  assert (Hk : forall c s o, end_kind c o -> Q s -> Q (fst (step s o))).
  { intros c s0 o0 Hk. apply Hstep. destruct o0; try contradiction; discriminate. }
  destruct o; try discriminate; cbn [step].
  - apply (connected_lifts (fun s r => Q s -> Q (fst r))); auto.
  - apply (disconnected_lifts (fun s r => Q s -> Q (fst r))); auto.
Qed.

Lemma step_mono s o : next_inst s <= next_inst (fst (step s o)).
Proof.
  apply (session_preserves (fun s' => next_inst s <= next_inst s')); [|auto| |apply N.le_refl].
  - intros s0 o0 Hp H. exact (N.le_trans _ _ _ H (step_next_inst s0 o0 Hp)).
  - intros s0 c H. now destruct (prep_same s0 c) as (_ & _ & _ & _ & _ & _ & ->).
Qed.

Lemma insert_tables s c k e f :
  let s' := fst (do_insert s c k e f) in
  spub_keys s' = spub_keys s /\ subscriptions s' = subscriptions s /\ ls_subscriptions s' = ls_subscriptions s /\
  locked_keys s' = locked_keys s /\ clients s' = clients s.
Proof. unfold do_insert. crush_op; cbn; auto. Qed.

Lemma pdelete_tables s c sk p :
  let s' := fst (do_pdelete s c sk p) in
  spub_keys s' = spub_keys s /\ subscriptions s' = subscriptions s /\ ls_subscriptions s' = ls_subscriptions s /\
  locked_keys s' = locked_keys s /\ clients s' = clients s.
Proof. unfold do_pdelete. crush_op; cbn; auto. Qed.

Lemma assoc_del_absent {K V} eqb k (l : list (K * V)) : assoc_get eqb k l = None -> assoc_del eqb k l = l.
Proof.
  unfold assoc_del. induction l as [|[k' v] l IH]; cbn; [reflexivity|]. destruct (eqb k k'); [discriminate|]. intros H. cbn. f_equal. now apply IH.
Qed.

Lemma unsubscribe_tables s c t :
  let s' := fst (do_unsubscribe s c t) in
  spub_keys s' = spub_keys s /\ ls_subscriptions s' = ls_subscriptions s /\
  locked_keys s' = locked_keys s /\ clients s' = clients s /\
  subscriptions s' = assoc_del id_eqb (c, t) (subscriptions s).
Proof.
  unfold do_unsubscribe. destruct (assoc_get id_eqb (c, t) (subscriptions s)) eqn:E; cbn [fst]; repeat split.
  symmetry. now apply assoc_del_absent.
Qed.

Lemma unsubscribe_ls_tables s c t :
  let s' := fst (do_unsubscribe_ls s c t) in
  spub_keys s' = spub_keys s /\ subscriptions s' = subscriptions s /\
  locked_keys s' = locked_keys s /\ clients s' = clients s /\
  ls_subscriptions s' = assoc_del id_eqb (c, t) (ls_subscriptions s).
Proof.
  unfold do_unsubscribe_ls. destruct (assoc_get id_eqb (c, t) (ls_subscriptions s)) eqn:E; cbn [fst]; repeat split.
  symmetry. now apply assoc_del_absent.
Qed.

Lemma id_eqb_eq a b : id_eqb a b = true <-> a = b.
Proof.
  destruct a as [a1 a2], b as [b1 b2]. unfold id_eqb. cbn [fst snd]. rewrite andb_true_iff, !N.eqb_eq.
  split; [intros [-> ->]; reflexivity|intros [= -> ->]; auto].
Qed.

Lemma final_table {V} c (tab : core -> list ((N * N) * V)) (unsub : op -> option (N * N)) :
  (forall s o, end_kind c o ->
     tab (fst (step s o)) = match unsub o with Some id => assoc_del id_eqb id (tab s) | None => tab s end) ->
  forall ops s id v, (forall o, In o ops -> end_kind c o) ->
    (In (id, v) (tab (final s ops)) <-> In (id, v) (tab s) /\ ~ In (Some id) (map unsub ops)).
Proof.
  intros H ops. induction ops as [|o ops IH]; intros s id v Hk; [cbn; tauto|].
  change (final s (o :: ops)) with (final (fst (step s o)) ops).
  rewrite IH by (intros; apply Hk; now right). rewrite H by (apply Hk; now left). cbn [map In].
  destruct (unsub o) as [i|].
  2:{ split; intros (A & B); (split; [exact A|]).
      - intros [C|C]; [discriminate|contradiction].
      - intros C. apply B. now right. }
  unfold assoc_del. rewrite filter_In. cbn [fst]. split.
  - intros ((A & B) & C). split; [exact A|]. intros [[= ->]|D]; [|contradiction].
    rewrite (proj2 (id_eqb_eq id id) eq_refl) in B. discriminate.
  - intros (A & B). split; [split; [exact A|]|tauto]. destruct (id_eqb i id) eqn:E; [|reflexivity].
    apply id_eqb_eq in E. subst. exfalso. apply B. now left.
Qed.

Lemma end_kind_tables c s o :
  end_kind c o ->
  subscriptions (fst (step s o)) =
    match o with OUnsubscribe a b => assoc_del id_eqb (a, b) (subscriptions s) | _ => subscriptions s end /\
  ls_subscriptions (fst (step s o)) =
    match o with OUnsubscribeLs a b => assoc_del id_eqb (a, b) (ls_subscriptions s) | _ => ls_subscriptions s end /\
  spub_keys (fst (step s o)) = spub_keys s /\ locked_keys (fst (step s o)) = locked_keys s /\
  clients (fst (step s o)) = clients s.
Proof.
  intros Hk. pose proof (step_frame s o) as F. destruct o; try contradiction; cbn [part_of] in F.
  - now destruct F as (d & n & ->).
  - now destruct F as (d & n & ->).
  - cbn [step]. destruct (unsubscribe_tables s c0 t) as (A & B & C & D & E). now rewrite A, B, C, D, E.
  - cbn [step]. destruct (unsubscribe_ls_tables s c0 t) as (A & B & C & D & E). now rewrite A, B, C, D, E.
Qed.

Lemma end_ops_unsubs s c b :
  (forall v, In ((c, b), v) (subscriptions s) -> In (OUnsubscribe c b) (end_ops s c)) /\
  (forall v, In ((c, b), v) (ls_subscriptions s) -> In (OUnsubscribeLs c b) (end_ops s c)).
Proof.
  unfold end_ops, ids_of.
  split; intros v H; apply in_or_app; right; [|apply in_or_app; right]; apply in_or_app; left;
    apply in_map_iff; exists (c, b); (split; [reflexivity|]); apply filter_In;
    (split; [apply in_map_iff; now exists ((c, b), v)|apply N.eqb_refl]).
Qed.

Definition tables_without (c : cid) (s s' : core) : Prop :=
  (forall id v, In (id, v) (subscriptions s') <-> In (id, v) (subscriptions s) /\ fst id <> c) /\
  (forall id v, In (id, v) (ls_subscriptions s') <-> In (id, v) (ls_subscriptions s) /\ fst id <> c) /\
  (forall id k, In (id, k) (spub_keys s') <-> In (id, k) (spub_keys s) /\ fst id <> c) /\
  locked_keys s' = assoc_del N.eqb c (locked_keys s) /\
  clients s' = filter (fun x => negb (N.eqb x c)) (clients s).

Theorem disconnected_tables s c :
  is_crash (snd (do_disconnected s c)) = false -> tables_without c s (fst (do_disconnected s c)).
Proof.
  intros Hc. unfold tables_without. rewrite (disconnected_end s c Hc).
  pose proof (end_ops_kind s c) as Hk. destruct (prep_same s c) as (_ & _ & _ & Es & _ & El & _).
  split; [|split].
  - intros [a b] v.
    rewrite (final_table c subscriptions (fun o => match o with OUnsubscribe a b => Some (a, b) | _ => None end)) by
      (try exact Hk; intros s0 o Ho; rewrite (proj1 (end_kind_tables c s0 o Ho)); now destruct o).
    rewrite Es, in_map_iff. split; intros (A & B); (split; [exact A|]).
    + intros E. cbn [fst] in E. subst a. apply B. exists (OUnsubscribe c b). split; [reflexivity|].
      exact (proj1 (end_ops_unsubs s c b) v A).
    + intros (o & E & Ho). destruct o; try discriminate. injection E as -> ->. exact (B (end_ops_kind s c _ Ho)).
  - intros [a b] v.
    rewrite (final_table c ls_subscriptions (fun o => match o with OUnsubscribeLs a b => Some (a, b) | _ => None end)) by
      (try exact Hk; intros s0 o Ho; rewrite (proj1 (proj2 (end_kind_tables c s0 o Ho))); now destruct o).
    rewrite El, in_map_iff. split; intros (A & B); (split; [exact A|]).
    + intros E. cbn [fst] in E. subst a. apply B. exists (OUnsubscribeLs c b). split; [reflexivity|].
      exact (proj2 (end_ops_unsubs s c b) v A).
    + intros (o & E & Ho). destruct o; try discriminate. injection E as -> ->. exact (B (end_ops_kind s c _ Ho)).
  - assert (Hrest : forall ops s0, (forall o, In o ops -> end_kind c o) ->
              spub_keys (final s0 ops) = spub_keys s0 /\ locked_keys (final s0 ops) = locked_keys s0 /\
              clients (final s0 ops) = clients s0).
    { induction ops as [|o ops IH]; intros s0 Ho; [now repeat split|].
      change (final s0 (o :: ops)) with (final (fst (step s0 o)) ops).
      destruct (IH (fst (step s0 o))) as (A & B & C); [intros; apply Ho; now right|].
      destruct (end_kind_tables c s0 o) as (_ & _ & A' & B' & C'); [apply Ho; now left|]. rewrite A, B, C. now repeat split. }
    destruct (Hrest _ (prep s c) Hk) as (A & B & C). rewrite A, B, C.
    destruct (unlock_all s c) as [[[l' g] x] cr] eqn:E. rewrite (prep_eq s c _ _ _ _ E).
    cbn [spub_keys locked_keys clients set_clients set_locks set_spub]. split; [|now split].
    intros id k. rewrite filter_In. cbn [fst]. split; intros (Hin & Hn); (split; [exact Hin|]).
    + intros E1. now rewrite E1, N.eqb_refl in Hn.
    + destruct (N.eqb_spec (fst id) c); [contradiction|reflexivity].
Qed.

(* C07; the first hypothesis follows from the second ([disconnected_crash]) *)
Theorem session_end_tables s c :
  N.eqb c 0 = false -> is_crash (snd (do_disconnected s c)) = false ->
  let s' := fst (do_disconnected s c) in
  (forall id v, In (id, v) (subscriptions s') <-> In (id, v) (subscriptions s) /\ fst id <> c) /\
  (forall id v, In (id, v) (ls_subscriptions s') <-> In (id, v) (ls_subscriptions s) /\ fst id <> c) /\
  (forall id k, In (id, k) (spub_keys s') <-> In (id, k) (spub_keys s) /\ fst id <> c) /\
  locked_keys s' = assoc_del N.eqb c (locked_keys s) /\
  clients s' = filter (fun x => negb (N.eqb x c)) (clients s).
Proof. intros _. exact (disconnected_tables s c). Qed.
