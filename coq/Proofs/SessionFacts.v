(* The protocol handler, request by request.  Every request gets exactly one terminal answer, carrying its transaction
   id (C13); a request never ends an established session; one this protocol version lacks is answered NotImplemented,
   one outside the grant Unauthorized, and before a token nothing is served (C15); an undecodable line closes its
   sender's session and nobody else's (C17); a subscribe is answered before its snapshot, and routed traffic carries the
   id of the request that asked for it.  [handle] is looked at once, in [handle_eq]: the decision it takes is written
   out as [on_request] / [serve] / [on_switch], and every theorem is read off those. *)
From WB Require Import Base.Str Model.Core Model.Codec Model.Auth Model.Session Proofs.Frame.

Definition smsg_tid (a : smsg) : option N :=
  match a with
  | SWelcome _ _ _ _ _ => None
  | SPState t _ _ | SAck t | SState t _ | SCState t _ _ | SErr t _ _ | SAuthorized t | SLsState t _ => Some t
  end.

Definition is_request (m : cmsg) : bool :=
  match m with MProtocolSwitchRequest _ | MAuthorizationRequest _ => false | _ => true end.

(* C13.  The case excluded is an acquire that has to wait: its answer comes when the lock is granted or the wait is
   cancelled, through [route_events]. *)
Theorem answer_unique m r :
  r <> RCrash ->
  (match m, r with MAcquireLock _ _, RReq _ => False | _, _ => True end) ->
  exists a, answer m r = [a] /\ smsg_tid a = Some (tid_of m).
Proof.
  intros Hc Hd. destruct m, r; try (eexists; split; reflexivity); try congruence. contradiction.
Qed.

Theorem answer_error m code : answer m (RErr code) = [SErr (tid_of m) code []].
Proof. reflexivity. Qed.

Theorem answer_kind m r :
  match m, r with
  | MGet t _, RValue v => answer m r = [SState t (SValue v)]
  | MCGet t _, RCValue v ver => answer m r = [SCState t v ver]
  | MPGet t p, RKvs l => answer m r = [SPState t p (PKvs l)]
  | MDelete t _, RValue v => answer m r = [SState t (SDeleted v)]
  | MPDelete t p q, RKvs l => answer m r = [SPState t p (PDel (match q with Some true => [] | _ => l end))]
  | MLs t _, RNames l | MPLs t _, RNames l => answer m r = [SLsState t l]
  | (MSet t _ _ | MCSet t _ _ _ | MSPubInit t _ | MSPub t _ | MPublish t _ _ | MUnsubscribe t | MUnsubscribeLs t
    | MLock t _ | MReleaseLock t _), RUnit => answer m r = [SAck t]
  | (MSubscribe t _ _ _ | MPSubscribe t _ _ _ _ | MSubscribeLs t _), RSub _ => answer m r = [SAck t]
  | _, _ => True
  end.
Proof. destruct m, r; try exact I; reflexivity. Qed.

Definition is_subscribe (m : cmsg) : bool :=
  match m with MSubscribe _ _ _ _ | MPSubscribe _ _ _ _ _ | MSubscribeLs _ _ => true | _ => false end.

Definition not_impl (s : sess) (m : cmsg) : bool :=
  (N.eqb (ss_proto s) 0 && v1_only m) || (match m with MTransform _ _ _ => true | _ => false end).

(* check_auth: None = AuthorizationRequired, the session ends *)
Definition denied (w : world) (s : sess) (m : cmsg) : option bool :=
  if w_auth_required w then
    match auth_requirement m with
    | None => Some false
    | Some (p, pat) =>
        match ss_claims s with
        | None => None
        | Some cl => Some (negb (authorize cl p pat))
        end
    end
  else Some false.

Definition after_request (w : world) (sn : N) (m : cmsg) (co : core * output) : world :=
  World (fst co) (w_auth_required w) (w_sess w)
    (match m, o_res (snd co) with
     | MSubscribe t _ _ _, RSub _ => (next_inst (w_core w), (sn, t, KState)) :: w_chan w
     | MPSubscribe t p _ _ _, RSub _ => (next_inst (w_core w), (sn, t, KPState p)) :: w_chan w
     | MSubscribeLs t _, RSub _ => (next_inst (w_core w), (sn, t, KLs)) :: w_chan w
     | _, _ => w_chan w
     end)
    (match m, o_res (snd co) with
     | MAcquireLock t _, RReq _ => (next_req (w_core w), (sn, t)) :: w_reqs w
     | _, _ => w_reqs w
     end).

Definition serve (w : world) (sn : N) (m : cmsg) : world * list (N * smsg) * verdict :=
  match op_of (cid_of sn) m with
  | None => (w, [], Continue)
  | Some o =>
      let '(core', out) := step (w_core w) o in
      let w' := after_request w sn m (core', out) in
      let ans := map (fun x => (sn, x)) (answer m (o_res out)) in
      (w', if is_subscribe m then ans ++ route_events w' out else route_events w' out ++ ans, Continue)
  end.

Definition on_request (w : world) (sn : N) (s : sess) (m : cmsg) : world * list (N * smsg) * verdict :=
  if not_impl s m then (w, [(sn, SErr (tid_of m) E_NotImplemented [])], Continue)
  else match denied w s m with
       | None => (w, [], Close)
       | Some true => (w, [(sn, SErr (tid_of m) E_Unauthorized [])], Continue)
       | Some false => serve w sn m
       end.

Definition on_switch (w : world) (sn : N) (s : sess) (v : N) : world * list (N * smsg) * verdict :=
  if N.leb v 1
  then (World (w_core w) (w_auth_required w) (update_n sn (Sess true v (ss_claims s)) (w_sess w)) (w_chan w) (w_reqs w),
        [(sn, SAck 0)], Continue)
  else (w, [], Close).

Definition handle_open (w : world) (sn : N) (s : sess) (m : cmsg) : world * list (N * smsg) * verdict :=
  match m with
  | MProtocolSwitchRequest v => on_switch w sn s v
  | MAuthorizationRequest _ => (w, [], Close)
  | _ => on_request w sn s m
  end.

(* [handle] is left folded: [destruct m; reflexivity] then checks each case by conversion, which reduces the branch of
   that constructor and never unfolds the others *)
Lemma handle_eq w sn m :
  handle w sn m = match lookup_n sn (w_sess w) with Some s => handle_open w sn s m | None => (w, [], Close) end.
Proof. destruct m; reflexivity. Qed.

Lemma handle_request w sn m s :
  lookup_n sn (w_sess w) = Some s -> is_request m = true -> handle w sn m = on_request w sn s m.
Proof. intros Hs Hr. rewrite handle_eq, Hs. destruct m; try discriminate Hr; reflexivity. Qed.

Lemma serve_none w sn m : op_of (cid_of sn) m = None -> serve w sn m = (w, [], Continue).
Proof. unfold serve. now intros ->. Qed.

Lemma serve_some w sn m o :
  op_of (cid_of sn) m = Some o ->
  let co := step (w_core w) o in
  let w' := after_request w sn m co in
  let ans := map (fun x => (sn, x)) (answer m (o_res (snd co))) in
  serve w sn m = (w', if is_subscribe m then ans ++ route_events w' (snd co) else route_events w' (snd co) ++ ans, Continue).
Proof. unfold serve. intros ->. now destruct (step (w_core w) o). Qed.

Lemma denied_tokenless w s m :
  w_auth_required w = true -> ss_claims s = None ->
  denied w s m = match auth_requirement m with Some _ => None | None => Some false end.
Proof. unfold denied. intros -> ->. now destruct (auth_requirement m) as [[p pat]|]. Qed.

Lemma denied_none w s m : denied w s m = None -> w_auth_required w = true /\ ss_claims s = None.
Proof.
  unfold denied. destruct (w_auth_required w); [|discriminate]. destruct (auth_requirement m) as [[p pat]|]; [|discriminate].
  now destruct (ss_claims s).
Qed.

Theorem request_keeps_session w sn m s :
  lookup_n sn (w_sess w) = Some s -> is_request m = true ->
  (w_auth_required w = false \/ ss_claims s <> None) ->
  snd (handle w sn m) = Continue.
Proof.
  intros Hs Hr Ha. rewrite (handle_request w sn m s Hs Hr). unfold on_request.
  destruct (not_impl s m); [reflexivity|].
  destruct (denied w s m) as [[|]|] eqn:Ed; [reflexivity| |apply denied_none in Ed as (Ea & Ec); destruct Ha; congruence].
  unfold serve. destruct (op_of (cid_of sn) m) as [o|]; [|reflexivity]. now destruct (step (w_core w) o).
Qed.

Theorem not_implemented w sn m s :
  lookup_n sn (w_sess w) = Some s -> is_request m = true ->
  ((ss_proto s = 0 /\ v1_only m = true) \/ (exists t k v, m = MTransform t k v)) ->
  handle w sn m = (w, [(sn, SErr (tid_of m) E_NotImplemented [])], Continue).
Proof.
  intros Hs Hr H. rewrite (handle_request w sn m s Hs Hr). unfold on_request.
  assert (Hni : not_impl s m = true).
  { unfold not_impl. destruct H as [[-> ->]|(t & k & v & ->)]; [reflexivity|apply Bool.orb_true_r]. }
  now rewrite Hni.
Qed.

(* the third hypothesis, here and in the next theorem, is [not_impl s m = false] written out *)
Theorem denied_is_noop w sn m s cl p pat :
  lookup_n sn (w_sess w) = Some s -> is_request m = true ->
  ((N.eqb (ss_proto s) 0 && v1_only m) || (match m with MTransform _ _ _ => true | _ => false end) = false)%bool ->
  w_auth_required w = true -> ss_claims s = Some cl -> auth_requirement m = Some (p, pat) ->
  authorize cl p pat = false ->
  handle w sn m = (w, [(sn, SErr (tid_of m) E_Unauthorized [])], Continue).
Proof.
  intros Hs Hr Hni Ha Hc Hq Hd. change (not_impl s m = false) in Hni.
  rewrite (handle_request w sn m s Hs Hr). unfold on_request, denied. now rewrite Hni, Ha, Hq, Hc, Hd.
Qed.

Theorem no_service_before_token w sn m s p pat :
  lookup_n sn (w_sess w) = Some s -> is_request m = true ->
  ((N.eqb (ss_proto s) 0 && v1_only m) || (match m with MTransform _ _ _ => true | _ => false end) = false)%bool ->
  w_auth_required w = true -> ss_claims s = None -> auth_requirement m = Some (p, pat) ->
  handle w sn m = (w, [], Close).
Proof.
  intros Hs Hr Hni Ha Hc Hq. change (not_impl s m = false) in Hni.
  rewrite (handle_request w sn m s Hs Hr). unfold on_request. now rewrite Hni, (denied_tokenless w s m Ha Hc), Hq.
Qed.

Lemma sess_open_lookup w sn : sess_open w sn = true -> exists s, lookup_n sn (w_sess w) = Some s /\ ss_open s = true.
Proof. unfold sess_open. destruct (lookup_n sn (w_sess w)) as [s|]; [eauto|discriminate]. Qed.

Lemma close_session_open w sn s :
  lookup_n sn (w_sess w) = Some s -> ss_open s = true ->
  let co := step (w_core w) (ODisconnected (cid_of sn)) in
  let w' := World (fst co) (w_auth_required w) (update_n sn (Sess false (ss_proto s) (ss_claims s)) (w_sess w)) (w_chan w) (w_reqs w) in
  close_session w sn = (w', route_events w' (snd co)).
Proof. intros Hl Ho. unfold close_session. rewrite Hl, Ho. cbn [w_core]. now destruct (step (w_core w) (ODisconnected (cid_of sn))). Qed.

Lemma close_session_closed w sn : sess_open w sn = false -> close_session w sn = (w, []).
Proof. unfold sess_open, close_session. destruct (lookup_n sn (w_sess w)) as [s|]; [now intros ->|reflexivity]. Qed.

Lemma open_session_eq w sn :
  let co := step (w_core w) (OConnected (cid_of sn)) in
  let w' := World (fst co) (w_auth_required w) (update_n sn (Sess true 1 None) (w_sess w)) (w_chan w) (w_reqs w) in
  open_session w sn = (w', (sn, SWelcome [] [] [] (w_auth_required w) (client_str (cid_of sn))) :: route_events w' (snd co)).
Proof. unfold open_session. now destruct (step (w_core w) (OConnected (cid_of sn))). Qed.

Definition settle (sn : N) (r : world * list (N * smsg) * verdict) : world * list (N * smsg) :=
  match snd r with
  | Continue => fst r
  | Close => (fst (close_session (fst (fst r)) sn), snd (fst r) ++ snd (close_session (fst (fst r)) sn))
  end.

Lemma settle_eq sn r :
  (let '(w1, out, v) := r in
   match v with Continue => (w1, out) | Close => let '(w2, out2) := close_session w1 sn in (w2, out ++ out2) end) = settle sn r.
Proof. destruct r as [[w1 out] [|]]; [reflexivity|]. unfold settle. cbn [fst snd]. now destruct (close_session w1 sn). Qed.

Lemma sstep_msg w sn m : sstep w (SMsg sn m) = if sess_open w sn then settle sn (handle w sn m) else (w, []).
Proof. cbn [sstep]. now rewrite settle_eq. Qed.

Lemma sstep_auth_ev w sn cl : sstep w (SAuth sn cl) = if sess_open w sn then settle sn (authorize_session w sn cl) else (w, []).
Proof. cbn [sstep]. now rewrite settle_eq. Qed.

Lemma lookup_update_same {A} (sn : N) (v : A) l : lookup_n sn (update_n sn v l) = Some v.
Proof. unfold update_n. cbn [lookup_n]. now rewrite N.eqb_refl. Qed.

Lemma lookup_update_other {A} (sn other : N) (v : A) l :
  other <> sn -> lookup_n other (update_n sn v l) = lookup_n other l.
Proof.
  intros Hne. unfold update_n. cbn [lookup_n].
  destruct (N.eqb_spec other sn) as [E|_]; [contradiction|].
  induction l as [|[k x] l IH]; [reflexivity|]. cbn [filter fst lookup_n].
  destruct (N.eqb_spec sn k) as [<-|Hk]; cbn [negb].
  - rewrite IH. destruct (N.eqb_spec other sn); [contradiction|reflexivity].
  - cbn [lookup_n]. destruct (N.eqb other k); [reflexivity|exact IH].
Qed.

Lemma close_session_other w sn other : other <> sn -> lookup_n other (w_sess (fst (close_session w sn))) = lookup_n other (w_sess w).
Proof.
  intros Hne. destruct (sess_open w sn) eqn:Eo; [|now rewrite close_session_closed].
  destruct (sess_open_lookup w sn Eo) as (s & Hl & Ho). rewrite (close_session_open w sn s Hl Ho). cbn [fst w_sess].
  now apply lookup_update_other.
Qed.

(* C17: an undecodable line ends its sender's session and nobody else's *)
Theorem garbage_closes_only_sender w sn other s :
  other <> sn -> lookup_n other (w_sess w) = Some s ->
  lookup_n other (w_sess (fst (sstep w (SGarbage sn)))) = Some s.
Proof.
  intros Hne Hs. cbn [sstep]. destruct (sess_open w sn); [|exact Hs]. now rewrite close_session_other.
Qed.

Lemma subscribe_no_crash s c m o :
  is_subscribe m = true -> op_of c m = Some o -> o_res (snd (step s o)) <> RCrash.
Proof. destruct m; try discriminate; intros _ [= <-]; now apply step_crash. Qed.

Lemma subscribe_answer m r :
  is_subscribe m = true -> r <> RCrash ->
  answer m r = [SAck (tid_of m)] \/ exists code, answer m r = [SErr (tid_of m) code []].
Proof.
  intros Hm Hr. destruct r; try congruence; try (left; destruct m; try discriminate Hm; reflexivity).
  right. now exists code.
Qed.

(* C13: the snapshot and any other traffic of a subscribe come after its answer *)
Theorem subscribe_answer_first w sn m s :
  lookup_n sn (w_sess w) = Some s -> is_subscribe m = true ->
  let out := snd (fst (handle w sn m)) in
  out = [] \/ exists code rest, out = (sn, SAck (tid_of m)) :: rest \/ out = (sn, SErr (tid_of m) code []) :: rest.
Proof.
  intros Hs Hm. cbv zeta.
  assert (Hr : is_request m = true) by (destruct m; try discriminate Hm; reflexivity).
  rewrite (handle_request w sn m s Hs Hr). unfold on_request.
  destruct (not_impl s m); [right; eexists; eexists; right; reflexivity|].
  destruct (denied w s m) as [[|]|]; [right; eexists; eexists; right; reflexivity| |now left].
  destruct (op_of (cid_of sn) m) as [o|] eqn:Eo; [|rewrite (serve_none w sn m Eo); now left].
  rewrite (serve_some w sn m o Eo), Hm. cbn [fst snd]. right.
  destruct (subscribe_answer m _ Hm (subscribe_no_crash (w_core w) (cid_of sn) m o Hm Eo)) as [-> | (code & ->)].
  - exists 0%N. eexists. left. reflexivity.
  - exists code. eexists. right. reflexivity.
Qed.

Definition event_with_tid (t : N) (msg : smsg) : Prop :=
  (exists ev, msg = SState t ev) \/ (exists p ev, msg = SPState t p ev) \/ (exists l, msg = SLsState t l).

Theorem routed_event_id w o sn msg :
  In (sn, msg) (route_events w o) ->
  (exists inst t k, lookup_n inst (w_chan w) = Some (sn, t, k) /\ event_with_tid t msg) \/
  (exists r t, lookup_n r (w_reqs w) = Some (sn, t) /\ (msg = SAck t \/ msg = SErr t E_LockAcquisitionCancelled [])).
Proof.
  unfold route_events, event_with_tid. rewrite !in_app_iff. intros [H|[H|[H|H]]]; apply in_flat_map in H as (x & _ & H).
  (* the four lists in turn: events and ls notes, found through the channel table; granted and cancelled lock requests,
     found through the request table.  All are guarded alike: the entry is in its table and its session is open *)
  1-2: left; destruct (lookup_n (fst x) (w_chan w)) as [[[s' t] k]|] eqn:E; [|contradiction].
  3-4: right; destruct (lookup_n x (w_reqs w)) as [[s' t]|] eqn:E; [|contradiction].
  all: destruct (sess_open w s'); [|contradiction].
  3-4: destruct H as [H|[]]; injection H as <- <-; exists x, t; auto.
  - exists (fst x), t, k. destruct (snd x), k; cbn in H; try contradiction.
    all: destruct H as [H|[]]; injection H as <- <-; split; [exact E|].
    all: first [ left; eexists; reflexivity | right; left; eexists; eexists; reflexivity ].
  - destruct H as [H|[]]. injection H as <- <-. exists (fst x), t, k. split; [exact E|]. right. right. eexists. reflexivity.
Qed.
