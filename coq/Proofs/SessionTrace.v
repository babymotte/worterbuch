(* A session end in terms of traces: a session end that does not crash is the trace of the requests it consists of
   (SessionEnd.v), with their events and notifications ([Runs], [disconnected_is_run]); hence what it does to the data
   is a trace of the map specification ([session_end_refines]).  [trace], [nocrash] and [run_trace] are those of
   LockHistory.v. *)
From WB Require Import Base.Str Model.Entry Model.Core Proofs.Frame Proofs.CoreFacts Proofs.SessionEnd Proofs.LockHistory
  Proofs.LenFacts Proofs.C01Proof.

Definition Runs (r : core * output) (s : core) (ops : list op) : Prop :=
  is_crash (snd r) = false ->
  fst r = final s ops /\ o_events (snd r) = evs_of (trace s ops) /\ o_ls (snd r) = lss_of (trace s ops) /\
  nocrash (trace s ops).

Lemma Runs_nil s r0 : Runs (s, out_res r0) s [].
Proof. intros _. repeat split. intros o []. Qed.

Lemma Runs_step s o : Runs (step s o) s [o].
Proof.
  intros Hc. cbn [trace evs_of lss_of flat_map]. rewrite !app_nil_r. repeat split.
  intros x [<-|[]]. exact Hc.
Qed.

Lemma Runs_insert s c k v f : Runs (do_insert s c k (Plain v) f) s [OSet c k v f].
Proof. exact (Runs_step s (OSet c k v f)). Qed.

Lemma Runs_seq2 r1 f s ops1 ops2 :
  Runs r1 s ops1 -> (forall s1, Runs (f s1) s1 ops2) -> Runs (seq2 r1 f) s (ops1 ++ ops2).
Proof.
  intros H1 H2. unfold Runs, seq2. destruct (is_crash (snd r1)) eqn:E1; [intros Hc; congruence|].
  cbn [fst snd]. intros Hc. change (is_crash (out_app (snd r1) (snd (f (fst r1))))) with (is_crash (snd (f (fst r1)))) in Hc.
  destruct (H1 E1) as (F1 & Ev1 & Ls1 & N1). destruct (H2 (fst r1) Hc) as (F2 & Ev2 & Ls2 & N2).
  rewrite final_app, trace_app, <- F1. unfold evs_of, lss_of in *. rewrite !flat_map_app.
  cbn [out_app o_events o_ls]. rewrite Ev1, Ev2, Ls1, Ls2. repeat split; try assumption.
  intros o Hin. apply in_app_iff in Hin as [Hin|Hin]; [now apply N1|now apply N2].
Qed.

Lemma Runs_ops ops : forall s, Runs (run_ops ops s) s ops.
Proof.
  induction ops as [|o ops IH]; intros s; [apply Runs_nil|].
  change (o :: ops) with ([o] ++ ops). apply Runs_seq2; [apply Runs_step|exact IH].
Qed.

(* the wrapping of a session's answer changes nothing that [Runs] reads *)
Lemma Runs_out r g x s ops : Runs r s ops -> Runs (fst r, end_out g x (snd r)) s ops.
Proof.
  intros H Hc. cbn [fst snd] in *. unfold end_out in *. destruct (is_crash (snd r)) eqn:E1; [congruence|]. exact (H E1).
Qed.

Theorem disconnected_is_run s c : Runs (do_disconnected s c) (prep s c) (end_ops s c).
Proof.
  destruct (disconnected_cases s c) as [->|(l' & g & x & _ & _ & ->)]; [intros Hc; discriminate|]. apply Runs_out, Runs_ops.
Qed.

Lemma nocrash_no_crash outs : nocrash outs -> no_crash outs.
Proof.
  intros H. apply Forall_forall. intros o Hin E. specialize (H o Hin). unfold is_crash in H. now rewrite E in H.
Qed.

Lemma end_ops_any s c : Forall any_req (end_ops s c) /\ Forall import_ok (end_ops s c).
Proof.
  split; apply Forall_forall; intros o Ho; apply end_ops_kind in Ho; destruct o; try contradiction; unfold any_req; cbn; tauto.
Qed.

Theorem session_end_refines s c :
  Inv s -> LenInv s -> N.eqb c 0 = false -> is_crash (snd (do_disconnected s c)) = false ->
  spec_trace (abs s) (end_ops s c) (trace (prep s c) (end_ops s c)) /\
  fst (do_disconnected s c) = final (prep s c) (end_ops s c) /\
  o_events (snd (do_disconnected s c)) = evs_of (trace (prep s c) (end_ops s c)) /\
  o_ls (snd (do_disconnected s c)) = lss_of (trace (prep s c) (end_ops s c)).
Proof.
  intros HI HL H0 Hc. destruct (disconnected_is_run s c Hc) as (F & Ev & Ls & Nc).
  split; [|auto]. destruct (prep_same s c) as (Ed & El & _).
  assert (Ea : abs (prep s c) = abs s) by (unfold abs; now rewrite Ed).
  rewrite <- Ea, <- (run_trace _ _ Nc). destruct (end_ops_any s c) as (Ha & Hi).
  apply run_refines_any; try assumption.
  - unfold Inv in *. now rewrite Ed.
  - unfold LenInv in *. now rewrite Ed, El.
  - rewrite (run_trace _ _ Nc). now apply nocrash_no_crash.
Qed.
