(* Facts about the tree of Model/Store.v: induction principle, well-formedness (distinct
   child names = HashMap), lookup, collect (= ncollect_matches); the children lists under upd_child,
   mod_child, filter and trim_kids; then what lookup finds after set_at, del_at, strip_sys and
   delm (= ndelete_matches). *)
From WB Require Import Base.ListFacts Base.Str Base.StrFacts Model.Key Model.Store Model.Match.

Section node_ind'.
  Context {V : Type}.
  Variable P : node V -> Prop.
  Hypothesis H : forall v cs, Forall (fun kc => P (snd kc)) cs -> P (Node v cs).
  Fixpoint node_ind' (n : node V) : P n :=
    match n with
    | Node v cs =>
        H v cs ((fix go (cs : list (str * node V)) : Forall (fun kc => P (snd kc)) cs :=
                   match cs with
                   | [] => Forall_nil _
                   | (k, c) :: cs' => Forall_cons (k, c) (node_ind' c) (go cs')
                   end) cs)
    end.
End node_ind'.

Lemma node_In_ind {V} (P : node V -> Prop) :
  (forall v cs, (forall k c, In (k, c) cs -> P c) -> P (Node v cs)) -> forall n, P n.
Proof.
  intros H. induction n as [v cs IH] using node_ind'. apply H. intros k c Hin.
  rewrite Forall_forall in IH. exact (IH _ Hin).
Qed.

(* a property of all children, written as the nested fixpoint that the guard condition asks for *)
Lemma kids_Forall {A} (P : str -> A -> Prop) (cs : list (str * A)) :
  (fix go (cs : list (str * A)) : Prop :=
     match cs with
     | [] => True
     | (k, c) :: cs' => P k c /\ go cs'
     end) cs <-> Forall (fun kc => P (fst kc) (snd kc)) cs.
Proof.
  induction cs as [|[k c] cs IH]; [split; [constructor|exact (fun _ => I)]|].
  rewrite Forall_cons_iff, <- IH. reflexivity.
Qed.

(* the children of a node are a HashMap: names distinct at every level *)
Fixpoint wfn {V} (n : node V) : Prop :=
  match n with
  | Node _ cs =>
      NoDup (names cs) /\
      (fix go (cs : list (str * node V)) : Prop :=
         match cs with
         | [] => True
         | (_, c) :: cs' => wfn c /\ go cs'
         end) cs
  end.

Lemma wfn_unfold {V} (v : option V) cs :
  wfn (Node v cs) <-> NoDup (names cs) /\ Forall (fun kc => wfn (snd kc)) cs.
Proof. exact (and_iff_compat_l _ (kids_Forall (fun _ c => wfn c) cs)). Qed.

Lemma wfn_kid {V} (v : option V) cs k c : wfn (Node v cs) -> In (k, c) cs -> wfn c.
Proof. intros [_ H]%wfn_unfold Hin. rewrite Forall_forall in H. exact (H _ Hin). Qed.

Lemma wf_node_ind {V} (P : node V -> Prop) :
  (forall v cs, wfn (Node v cs) -> NoDup (names cs) -> (forall k c, In (k, c) cs -> P c) -> P (Node v cs)) ->
  forall n, wfn n -> P n.
Proof.
  intros H. induction n as [v cs IH] using node_In_ind. intros Hwf.
  apply H; [exact Hwf|now apply wfn_unfold in Hwf|]. intros k c Hin. exact (IH _ _ Hin (wfn_kid _ _ _ _ Hwf Hin)).
Qed.

Lemma find_child_In {A} k (cs : list (str * A)) c :
  find_child k cs = Some c -> In (k, c) cs.
Proof.
  induction cs as [|[k' c'] cs IH]; cbn; [discriminate|].
  destruct (str_eqb_spec k k') as [->|Hn].
  - intros [= ->]. now left.
  - intros H. right. now apply IH.
Qed.

Lemma In_find_child {A} k (cs : list (str * A)) c :
  NoDup (names cs) -> In (k, c) cs -> find_child k cs = Some c.
Proof.
  induction cs as [|[k' c'] cs IH]; cbn; [contradiction|]. intros [Hni Hnd]%NoDup_cons_iff [[= -> ->]|Hin].
  - now rewrite str_eqb_refl.
  - destruct (str_eqb_spec k k') as [->|Hn]; [|now apply IH].
    elim Hni. exact (in_map fst _ _ Hin).
Qed.

Lemma find_child_None {A} k (cs : list (str * A)) :
  find_child k cs = None <-> ~ In k (names cs).
Proof.
  induction cs as [|[k' c'] cs IH]; cbn; [split; [intros _ []|reflexivity]|].
  destruct (str_eqb_spec k k') as [->|Hn]; [split; [discriminate|intros H; elim H; now left]|].
  rewrite IH. split; [intros H [E|Hin]; [congruence|now apply H]|intros H Hin; apply H; now right].
Qed.

Lemma lookup_nil {V} (n : node V) : lookup n [] = nval n.
Proof. reflexivity. Qed.

Lemma lookup_cons {V} (v : option V) cs k q :
  lookup (Node v cs) (k :: q) = match find_child k cs with Some c => lookup c q | None => None end.
Proof. unfold lookup. cbn. destruct (find_child k cs); reflexivity. Qed.

Lemma lookup_below {V} (v : option V) cs k q x :
  lookup (Node v cs) (k :: q) = Some x -> exists c, In (k, c) cs /\ lookup c q = Some x.
Proof.
  rewrite lookup_cons. destruct (find_child k cs) as [c|] eqn:Ef; [|discriminate].
  exists c. split; [now apply find_child_In|assumption].
Qed.

Lemma lookup_kid {V} (v : option V) cs k c q :
  NoDup (names cs) -> In (k, c) cs -> lookup (Node v cs) (k :: q) = lookup c q.
Proof. intros Hnd Hin. now rewrite lookup_cons, (In_find_child _ _ _ Hnd Hin). Qed.

(* collect is a nested fixpoint: its equations, pattern by pattern, with [flat_map] and [find_child] for the
   inner loops *)

Lemma collect_nil {V} (n : node V) trav :
  collect n trav [] = map (fun x => (trav, x)) (opt_list (nval n)).
Proof. destruct n; reflexivity. Qed.

Lemma collect_multi {V} (v : option V) cs trav :
  collect (Node v cs) trav [Multi] =
  map (fun x => (trav, x)) (opt_list v) ++
  flat_map (fun kc => collect (snd kc) (trav ++ [fst kc]) [Multi]) cs.
Proof.
  cbn [collect]. f_equal. induction cs as [|[k c] cs IH]; cbn; [reflexivity|]. now rewrite IH.
Qed.

Lemma collect_multi_bad {V} (n : node V) trav s p : collect n trav (Multi :: s :: p) = [].
Proof. destruct n; reflexivity. Qed.

Lemma collect_wild {V} (v : option V) cs trav tail :
  collect (Node v cs) trav (Wild :: tail) =
  flat_map (fun kc => collect (snd kc) (trav ++ [fst kc]) tail) cs.
Proof.
  cbn [collect]. induction cs as [|[k c] cs IH]; cbn; [reflexivity|]. now rewrite IH.
Qed.

Lemma collect_reg {V} (v : option V) cs trav s tail :
  collect (Node v cs) trav (Reg s :: tail) =
  match find_child s cs with Some c => collect c (trav ++ [s]) tail | None => [] end.
Proof.
  cbn [collect]. induction cs as [|[k c] cs IH]; cbn; [reflexivity|].
  destruct (str_eqb s k); [reflexivity|assumption].
Qed.

Lemma entries_collect {V} (n : node V) : forall trav, entries n trav = collect n trav [Multi].
Proof.
  induction n as [v cs IH] using node_ind'. intros trav.
  rewrite collect_multi. cbn [entries]. f_equal.
  induction IH as [|[k c] cs Hc Hcs IHcs]; [reflexivity|]. cbn [flat_map fst snd].
  cbn [snd] in Hc. now rewrite Hc, IHcs.
Qed.

(* C04, pget: ncollect_matches returns exactly the entries whose relative path satisfies store_match *)
Theorem collect_spec {V} (n : node V) : forall trav p q x,
  wfn n ->
  (In (q, x) (collect n trav p) <->
   exists k, q = trav ++ k /\ lookup n k = Some x /\ store_match p k = true).
Proof.
  intros trav p q x Hwf. revert n Hwf trav p q x. refine (wf_node_ind _ _). intros v cs _ Hnd IH trav p q x.
  assert (Hhere : In (q, x) (map (fun y => (trav, y)) (opt_list v)) <-> q = trav /\ v = Some x).
  { destruct v as [y|]; cbn; [|split; [intros []|intros [_ [=]]]].
    split; [intros [[= <- <-]|[]]; auto|intros [-> [= ->]]; now left]. }
  assert (Hkids : forall tail,
    In (q, x) (flat_map (fun kc => collect (snd kc) (trav ++ [fst kc]) tail) cs) <->
    exists k k', q = trav ++ k :: k' /\ lookup (Node v cs) (k :: k') = Some x /\ store_match tail k' = true).
  { intros tail. rewrite in_flat_map. split.
    - intros ([k c] & Hin & H). apply (IH _ _ Hin) in H as (k' & -> & Hl & Hm).
      exists k, k'. rewrite <- app_assoc, (lookup_kid _ _ _ _ _ Hnd Hin). now split.
    - intros (k & k' & -> & Hl & Hm). apply lookup_below in Hl as (c & Hin & Hl).
      exists (k, c). split; [exact Hin|]. apply (IH _ _ Hin). exists k'. now rewrite <- app_assoc. }
  destruct p as [|[s| |] tail].
  - rewrite collect_nil, Hhere. split.
    + intros [-> ->]. exists []. now rewrite app_nil_r.
    + intros ([|y k] & -> & Hl & Hm); [|discriminate]. rewrite app_nil_r. now split.
  - rewrite collect_reg. split.
    + destruct (find_child s cs) as [c|] eqn:Ef; [|contradiction]. apply find_child_In in Ef. intros H.
      apply (IH _ _ Ef) in H as (k & -> & Hl & Hm).
      exists (s :: k). rewrite <- app_assoc, (lookup_kid _ _ _ _ _ Hnd Ef). cbn [store_match].
      now rewrite str_eqb_refl.
    + intros ([|y k] & -> & Hl & Hm); [discriminate|]. cbn [store_match] in Hm.
      apply andb_true_iff in Hm as [Hs Hm]. apply str_eqb_eq in Hs. subst y.
      apply lookup_below in Hl as (c & Hin & Hl). rewrite (In_find_child _ _ _ Hnd Hin).
      apply (IH _ _ Hin). exists k. now rewrite <- app_assoc.
  - rewrite collect_wild, Hkids. split.
    + intros (k & k' & -> & Hl & Hm). now exists (k :: k').
    + intros ([|k k'] & -> & Hl & Hm); [discriminate|]. now exists k, k'.
  - destruct tail as [|s' tail].
    + rewrite collect_multi, in_app_iff, Hhere, Hkids. split.
      * intros [[-> ->]|(k & k' & -> & Hl & _)]; [exists []; now rewrite app_nil_r|now exists (k :: k')].
      * intros ([|k k'] & -> & Hl & _); [left; now rewrite app_nil_r|right; now exists k, k'].
    + rewrite collect_multi_bad. split; [contradiction|]. intros (k & _ & _ & Hm). discriminate.
Qed.

Lemma entries_lookup {V} (other : node V) q e : wfn other -> (In (q, e) (entries other []) <-> lookup other q = Some e).
Proof.
  intros Hw. rewrite entries_collect, (collect_spec other [] [Multi] q e Hw). cbn [app]. split.
  - now intros (k & -> & Hl & _).
  - intros Hl. exists q. split; [reflexivity|]. split; [exact Hl|]. now destruct q.
Qed.

Lemma find_upd_child_same {A} (d : A) k f cs :
  find_child k (upd_child d k f cs) =
  Some (f (match find_child k cs with Some c => c | None => d end)).
Proof.
  induction cs as [|[k' c] cs IH]; cbn.
  - now rewrite str_eqb_refl.
  - destruct (str_eqb k k') eqn:E; cbn; rewrite E; [reflexivity|assumption].
Qed.

Lemma find_upd_child_other {A} (d : A) k k2 f cs :
  k2 <> k -> find_child k2 (upd_child d k f cs) = find_child k2 cs.
Proof.
  intros Hn. induction cs as [|[k' c] cs IH]; cbn.
  - apply str_eqb_neq in Hn. now rewrite Hn.
  - destruct (str_eqb_spec k k') as [<-|Hk]; cbn.
    + apply str_eqb_neq in Hn. now rewrite Hn.
    + destruct (str_eqb k2 k'); [reflexivity|assumption].
Qed.

Lemma upd_child_id {A} (d : A) k f cs c :
  find_child k cs = Some c -> f c = c -> upd_child d k f cs = cs.
Proof.
  induction cs as [|[k' c'] cs IH]; cbn; [discriminate|].
  destruct (str_eqb k k') eqn:E.
  - intros [= ->] Hf. now rewrite Hf.
  - intros Hfc Hf. now rewrite IH.
Qed.

Lemma existsb_str_In k l : existsb (str_eqb k) l = true <-> In k l.
Proof.
  rewrite existsb_exists. split.
  - intros (x & Hin & E). apply str_eqb_eq in E. now subst.
  - intros Hin. exists k. split; [assumption|apply str_eqb_refl].
Qed.

Lemma names_upd_child {A} (d : A) k f cs :
  names (upd_child d k f cs) = if existsb (str_eqb k) (names cs) then names cs else names cs ++ [k].
Proof.
  unfold names. induction cs as [|[k' c] cs IH]; cbn; [reflexivity|].
  destruct (str_eqb k k') eqn:E; cbn; [reflexivity|]. rewrite IH.
  now destruct (existsb (str_eqb k) (map fst cs)).
Qed.

Lemma NoDup_names_upd_child {A} (d : A) k f cs :
  NoDup (names cs) -> NoDup (names (upd_child d k f cs)).
Proof.
  intros Hnd. rewrite names_upd_child.
  destruct (existsb (str_eqb k) (names cs)) eqn:E; [assumption|].
  apply NoDup_snoc; [assumption|].
  intros Hin. apply existsb_str_In in Hin. congruence.
Qed.

Lemma Forall_upd_child {A} (P : str -> A -> Prop) (d : A) k f cs :
  Forall (fun kc => P (fst kc) (snd kc)) cs -> (forall c, P k c -> P k (f c)) -> P k (f d) ->
  Forall (fun kc => P (fst kc) (snd kc)) (upd_child d k f cs).
Proof.
  intros Hall Hf Hd. induction Hall as [|[k' c] cs Hc Hcs IH]; cbn.
  - constructor; [exact Hd|constructor].
  - destruct (str_eqb_spec k k') as [<-|_]; constructor; try assumption. now apply Hf.
Qed.

Lemma find_mod_child {A} k k2 (f : A -> A) cs :
  find_child k2 (mod_child k f cs) =
  if str_eqb k2 k then option_map f (find_child k cs) else find_child k2 cs.
Proof.
  induction cs as [|[k' c] cs IH]; cbn.
  - now destruct (str_eqb k2 k).
  - destruct (str_eqb_spec k k') as [<-|Hk]; cbn.
    + destruct (str_eqb k2 k); reflexivity.
    + rewrite IH. destruct (str_eqb_spec k2 k) as [->|Hn].
      * apply str_eqb_neq in Hk. now rewrite Hk.
      * reflexivity.
Qed.

Lemma names_mod_child {A} k (f : A -> A) cs : names (mod_child k f cs) = names cs.
Proof.
  unfold names. induction cs as [|[k' c] cs IH]; cbn; [reflexivity|].
  destruct (str_eqb k k'); cbn; [reflexivity|now rewrite IH].
Qed.

Lemma Forall_mod_child {A} (P : str -> A -> Prop) k f cs :
  Forall (fun kc => P (fst kc) (snd kc)) cs -> (forall c, P k c -> P k (f c)) ->
  Forall (fun kc => P (fst kc) (snd kc)) (mod_child k f cs).
Proof.
  intros Hall Hf. induction Hall as [|[k' c] cs Hc Hcs IH]; cbn; [constructor|].
  destruct (str_eqb_spec k k') as [<-|_]; constructor; try assumption. now apply Hf.
Qed.

Lemma mod_upd_child {A} (d : A) k f g h cs :
  (forall x, g (f x) = h x) -> mod_child k g (upd_child d k f cs) = upd_child d k h cs.
Proof.
  intros H. induction cs as [|[k' c] cs IH]; cbn.
  - now rewrite str_eqb_refl, H.
  - destruct (str_eqb k k') eqn:E; cbn; rewrite E; [now rewrite H|now rewrite IH].
Qed.

Lemma mod_child_found {A} k (f : A -> A) cs :
  mod_child k f cs = match find_child k cs with Some c => mod_child k (fun _ => f c) cs | None => cs end.
Proof.
  induction cs as [|[k' c] cs IH]; cbn; [reflexivity|]. destruct (str_eqb k k'); [reflexivity|].
  rewrite IH. now destruct (find_child k cs).
Qed.

Lemma mod_child_id {A} k (f : A -> A) cs c : find_child k cs = Some c -> f c = c -> mod_child k f cs = cs.
Proof.
  induction cs as [|[k' c'] cs IH]; cbn [find_child mod_child]; [discriminate|].
  destruct (str_eqb k k'); [intros [= ->] ->; reflexivity|]. intros H E. now rewrite IH.
Qed.

Lemma child_mid {A} k (f : A -> A) (c : A) a b :
  ~ In k (names a) -> find_child k (a ++ (k, c) :: b) = Some c /\ mod_child k f (a ++ (k, c) :: b) = a ++ (k, f c) :: b.
Proof.
  induction a as [|[k' c'] a IH]; cbn [app find_child mod_child names map fst In]; intros H; [now rewrite str_eqb_refl|].
  destruct (str_eqb_spec k k') as [->|_]; [elim H; now left|]. destruct IH as (E1 & E2); [tauto|]. now rewrite E1, E2.
Qed.

Lemma NoDup_names_filter {A} (g : str * A -> bool) cs :
  NoDup (names cs) -> NoDup (names (filter g cs)).
Proof. apply NoDup_map_filter. Qed.

Lemma find_filter {A} (g : str * A -> bool) k cs :
  NoDup (names cs) ->
  find_child k (filter g cs) =
  match find_child k cs with Some c => if g (k, c) then Some c else None | None => None end.
Proof.
  induction cs as [|[k' c] cs IH]; cbn; [reflexivity|].
  intros Hnd. inversion Hnd as [|? ? Hni Hnd']; subst.
  destruct (str_eqb_spec k k') as [<-|Hk].
  - destruct (g (k, c)) eqn:Eg; cbn.
    + now rewrite str_eqb_refl.
    + rewrite IH by assumption. now rewrite (proj2 (find_child_None k cs) Hni).
  - destruct (g (k', c)); cbn.
    + apply str_eqb_neq in Hk. rewrite Hk. now apply IH.
    + now apply IH.
Qed.

Lemma find_child_filter {A} (g : str -> bool) k (cs : list (str * A)) :
  find_child k (filter (fun kc => g (fst kc)) cs) = if g k then find_child k cs else None.
Proof.
  induction cs as [|[k' c] cs IH]; [now destruct (g k)|]. cbn [filter fst find_child].
  destruct (str_eqb_spec k k') as [<-|Hne].
  - destruct (g k); [cbn [find_child]; now rewrite str_eqb_refl|exact IH].
  - destruct (g k'); [cbn [find_child]; now destruct (str_eqb_spec k k')|exact IH].
Qed.

Lemma lookup_strip_sys {V} sys (n : node V) k q :
  lookup (strip_sys sys n) (k :: q) = if str_eqb k sys then None else lookup n (k :: q).
Proof.
  destruct n as [v cs]. unfold strip_sys. cbn [nval nkids].
  rewrite !lookup_cons, (find_child_filter (fun k => negb (str_eqb k sys))). now destruct (str_eqb k sys).
Qed.

Lemma find_map_fst_snd {A B} (g : str -> A -> B) k (cs : list (str * A)) :
  find_child k (map (fun kc => (fst kc, g (fst kc) (snd kc))) cs) = option_map (g k) (find_child k cs).
Proof.
  induction cs as [|[k' c] cs IH]; cbn; [reflexivity|].
  destruct (str_eqb_spec k k') as [<-|Hk]; [reflexivity|assumption].
Qed.

Lemma names_map_kids {A B} (g : str * A -> B) (cs : list (str * A)) :
  names (map (fun kc => (fst kc, g kc)) cs) = names cs.
Proof. unfold names. rewrite map_map. apply map_ext. reflexivity. Qed.

Lemma lookup_obsolete {V} (n : node V) q : is_obsolete n = true -> lookup n q = None.
Proof.
  destruct n as [[x|] [|kc cs]]; cbn; try discriminate. intros _.
  destruct q; reflexivity.
Qed.

Lemma lookup_empty {V} q : lookup (@empty_node V) q = None.
Proof. now apply lookup_obsolete. Qed.

Lemma lookup_trim {V} (v : option V) cs q :
  NoDup (names cs) -> lookup (Node v (trim_kids cs)) q = lookup (Node v cs) q.
Proof.
  intros Hnd. destruct q as [|k q]; [reflexivity|].
  rewrite !lookup_cons. unfold trim_kids. rewrite find_filter by assumption.
  destruct (find_child k cs) as [c|]; [|reflexivity]. cbn [snd].
  destruct (is_obsolete c) eqn:E; cbn; [|reflexivity].
  symmetry. now apply lookup_obsolete.
Qed.

(* the node that ndelete and, at a regular segment, ndelete_matches leave; [F] is the recursion in the child
   [k], [M] the keys it removes there *)
Lemma lookup_trim_mod {V} (v : option V) cs k (F : node V -> node V) (M : list str -> bool) k2 q :
  wfn (Node v cs) ->
  (forall c, wfn c -> lookup (F c) q = if M q then None else lookup c q) ->
  lookup (Node v (trim_kids (mod_child k F cs))) (k2 :: q) =
  if str_eqb k k2 && M q then None else lookup (Node v cs) (k2 :: q).
Proof.
  intros Hwf HF. rewrite lookup_trim by (rewrite names_mod_child; now apply wfn_unfold in Hwf).
  rewrite !lookup_cons, find_mod_child. destruct (str_eqb_spec k k2) as [<-|Hn]; cbn [andb].
  - rewrite str_eqb_refl. destruct (find_child k cs) as [c|] eqn:Ef; cbn [option_map]; [|now destruct (M q)].
    apply HF. exact (wfn_kid _ _ _ _ Hwf (find_child_In _ _ _ Ef)).
  - apply not_eq_sym in Hn. apply str_eqb_neq in Hn. now rewrite Hn.
Qed.

Lemma wfn_filter {V} (v v' : option V) g cs : wfn (Node v cs) -> wfn (Node v' (filter g cs)).
Proof.
  intros [Hnd Hk]%wfn_unfold. apply wfn_unfold. split; [now apply NoDup_names_filter|now apply Forall_filter].
Qed.

Lemma wfn_trim_mod {V} (v : option V) k f cs :
  (forall c, wfn c -> wfn (f c)) -> wfn (Node v cs) -> wfn (Node v (trim_kids (mod_child k f cs))).
Proof.
  intros Hf [Hnd Hk]%wfn_unfold. apply (wfn_filter v), wfn_unfold. split; [now rewrite names_mod_child|].
  now apply (Forall_mod_child (fun _ c => wfn c)).
Qed.

Theorem lookup_set_at {V} p (e : V) : forall n q,
  lookup (set_at p e n) q = if path_eqb p q then Some e else lookup n q.
Proof.
  induction p as [|k p IH]; intros [v cs] q.
  - destruct q; reflexivity.
  - cbn [set_at nval nkids]. destruct q as [|k2 q]; [reflexivity|].
    rewrite !lookup_cons. cbn [path_eqb].
    destruct (str_eqb_spec k k2) as [<-|Hn].
    + rewrite find_upd_child_same, IH. cbn [andb].
      destruct (path_eqb p q); [reflexivity|].
      destruct (find_child k cs); [reflexivity|apply lookup_empty].
    + rewrite find_upd_child_other by congruence. reflexivity.
Qed.

Lemma wfn_empty {V} : wfn (@empty_node V).
Proof. cbn. split; [constructor|exact I]. Qed.

Theorem wfn_set_at {V} p (e : V) : forall n, wfn n -> wfn (set_at p e n).
Proof.
  induction p as [|k p IH]; intros [v cs] Hwf; [exact Hwf|].
  cbn [set_at nval nkids]. apply wfn_unfold in Hwf as [Hnd Hc]. apply wfn_unfold. split.
  - now apply NoDup_names_upd_child.
  - apply (Forall_upd_child (fun _ c => wfn c)); [assumption|exact IH|apply IH; exact wfn_empty].
Qed.

Theorem wfn_del_at {V} p : forall (n : node V), wfn n -> wfn (del_at p n).
Proof.
  induction p as [|k p IH]; intros [v cs] Hwf; [exact Hwf|].
  cbn [del_at nkids nval]. destruct (find_child k cs); [|assumption]. now apply wfn_trim_mod.
Qed.

Theorem lookup_del_at {V} p : forall (n : node V) q,
  wfn n -> lookup (del_at p n) q = if path_eqb p q then None else lookup n q.
Proof.
  induction p as [|k p IH]; intros [v cs] q Hwf; [now destruct q|].
  cbn [del_at nkids nval]. destruct q as [|k2 q]; [now destruct (find_child k cs)|]. cbn [path_eqb].
  destruct (find_child k cs) as [c|] eqn:Ef.
  - apply lookup_trim_mod; [exact Hwf|]. intros c'. apply IH.
  - destruct (str_eqb_spec k k2) as [<-|Hn]; [|reflexivity]. rewrite lookup_cons, Ef. now destruct (path_eqb p q).
Qed.

Lemma delm_nil {V} (n : node V) trav :
  delm n trav [] = DelmRes (Node None (nkids n)) (map (fun x => (trav, x)) (opt_list (nval n))) [].
Proof. destruct n; reflexivity. Qed.

Lemma delm_multi {V} (n : node V) trav :
  delm n trav [Multi] = DelmRes (Node None []) (collect n trav [Multi]) (multi_notes n trav).
Proof. destruct n; reflexivity. Qed.

Lemma delm_multi_bad {V} (n : node V) trav s p :
  delm n trav (Multi :: s :: p) = DelmRes n [] [].
Proof. destruct n; reflexivity. Qed.

(* what the loop of ndelete_matches over the children builds at a `?`: each child with its name and the result
   of the recursion in it; kept as one list because [wild_notes] reads all three *)
Definition wild_rs {V} (trav : list str) (tail : list kseg) (cs : list (str * node V))
  : list (str * node V * delm_res V) :=
  map (fun kc => (fst kc, snd kc, delm (snd kc) (trav ++ [fst kc]) tail)) cs.

Lemma delm_wild {V} (v : option V) cs trav tail :
  delm (Node v cs) trav (Wild :: tail) =
  let rs := wild_rs trav tail cs in
  DelmRes (Node v (trim_kids (map (fun x => (fst (fst x), dr_node (snd x))) rs)))
          (flat_map (fun x => dr_matches (snd x)) rs)
          (wild_notes trav [] rs).
Proof.
  cbn [delm]. unfold wild_rs.
  assert (E : (fix go (cs0 : list (str * node V)) : list (str * node V * delm_res V) :=
                 match cs0 with
                 | [] => []
                 | (k, c) :: cs' => (k, c, delm c (trav ++ [k]) tail) :: go cs'
                 end) cs =
              map (fun kc => (fst kc, snd kc, delm (snd kc) (trav ++ [fst kc]) tail)) cs).
  { induction cs as [|[k c] cs IH]; cbn; [reflexivity|]. now rewrite IH. }
  now rewrite E.
Qed.

Lemma delm_reg {V} (v : option V) cs trav s tail :
  delm (Node v cs) trav (Reg s :: tail) =
  match find_child s cs with
  | Some c =>
      let rc := delm c (trav ++ [s]) tail in
      let kids := mod_child s (fun _ => dr_node rc) cs in
      DelmRes (Node v (trim_kids kids)) (dr_matches rc)
              (dr_notes rc ++ (if any_obsolete kids then [(trav, names (trim_kids kids))] else []))
  | None => DelmRes (Node v (trim_kids cs)) [] []
  end.
Proof.
  cbn [delm].
  assert (E : (fix go (cs0 : list (str * node V)) : option (delm_res V) :=
                 match cs0 with
                 | [] => None
                 | (k, c) :: cs' => if str_eqb s k then Some (delm c (trav ++ [s]) tail) else go cs'
                 end) cs =
              option_map (fun c => delm c (trav ++ [s]) tail) (find_child s cs)).
  { induction cs as [|[k c] cs IH]; cbn; [reflexivity|]. destruct (str_eqb s k); [reflexivity|assumption]. }
  rewrite E. destruct (find_child s cs); reflexivity.
Qed.

Lemma delm_node_reg {V} (v : option V) cs trav s tail :
  dr_node (delm (Node v cs) trav (Reg s :: tail)) =
  Node v (trim_kids (mod_child s (fun c => dr_node (delm c (trav ++ [s]) tail)) cs)).
Proof.
  rewrite delm_reg, (mod_child_found s (fun c => dr_node (delm c (trav ++ [s]) tail))).
  now destruct (find_child s cs).
Qed.

Lemma delm_node_wild {V} (v : option V) cs trav tail :
  dr_node (delm (Node v cs) trav (Wild :: tail)) =
  Node v (trim_kids (map (fun kc => (fst kc, dr_node (delm (snd kc) (trav ++ [fst kc]) tail))) cs)).
Proof. rewrite delm_wild. cbn [dr_node]. unfold wild_rs. now rewrite map_map. Qed.

Theorem delm_matches {V} (n : node V) : forall trav p,
  dr_matches (delm n trav p) = collect n trav p.
Proof.
  intros trav p. revert n trav. induction p as [|[s| |] tail IH]; intros [v cs] trav; [reflexivity| | |].
  - rewrite delm_reg, collect_reg. destruct (find_child s cs); [apply IH|reflexivity].
  - rewrite delm_wild, collect_wild. cbn [dr_matches]. unfold wild_rs.
    rewrite flat_map_concat_map, map_map, <- flat_map_concat_map. apply flat_map_ext. intros kc. apply IH.
  - destruct tail; [now rewrite delm_multi|now rewrite delm_multi_bad, collect_multi_bad].
Qed.

Theorem wfn_delm {V} (n : node V) : forall trav p, wfn n -> wfn (dr_node (delm n trav p)).
Proof.
  intros trav p. revert n trav. induction p as [|[s| |] tail IH]; intros [v cs] trav Hwf.
  - rewrite delm_nil. exact Hwf.
  - rewrite delm_node_reg. apply wfn_trim_mod; [|exact Hwf]. intros c. apply IH.
  - rewrite delm_node_wild. apply wfn_unfold in Hwf as [Hnd Hk]. apply (wfn_filter v), wfn_unfold. split.
    + now rewrite names_map_kids.
    + apply Forall_map. eapply Forall_impl; [|exact Hk]. intros kc. apply IH.
  - destruct tail; [rewrite delm_multi; exact wfn_empty|now rewrite delm_multi_bad].
Qed.

Theorem lookup_delm {V} (n : node V) : forall trav p q,
  wfn n -> lookup (dr_node (delm n trav p)) q = if store_match p q then None else lookup n q.
Proof.
  intros trav p. revert n trav. induction p as [|[s| |] tail IH]; intros [v cs] trav q Hwf.
  - rewrite delm_nil. now destruct q.
  - rewrite delm_node_reg. destruct q as [|k2 q]; [reflexivity|]. cbn [store_match].
    apply lookup_trim_mod; [exact Hwf|]. intros c. apply IH.
  - rewrite delm_node_wild, lookup_trim by (rewrite names_map_kids; now apply wfn_unfold in Hwf).
    destruct q as [|k2 q]; [reflexivity|]. cbn [store_match].
    rewrite !lookup_cons, (find_map_fst_snd (fun k c => dr_node (delm c (trav ++ [k]) tail))).
    destruct (find_child k2 cs) as [c|] eqn:Ef; cbn [option_map]; [|now destruct (store_match tail q)].
    apply IH. exact (wfn_kid _ _ _ _ Hwf (find_child_In _ _ _ Ef)).
  - destruct tail as [|s' tail].
    + rewrite delm_multi. now apply lookup_obsolete.
    + now rewrite delm_multi_bad.
Qed.

(* C04, pdelete: ndelete_matches removes exactly the entries satisfying store_match and keeps every other; what it
   returns is what ncollect_matches would have returned ([delm_matches]) *)
Theorem delm_spec {V} (n : node V) : forall trav p q,
  wfn n ->
  wfn (dr_node (delm n trav p)) /\
  lookup (dr_node (delm n trav p)) q = if store_match p q then None else lookup n q.
Proof. intros trav p q Hwf. split; [now apply wfn_delm|now apply lookup_delm]. Qed.
