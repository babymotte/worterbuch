(* C03 over whole histories of requests of every kind.  StreamProof.v follows one subscription through reads,
   sets, csets, deletes and publishes; here pattern deletes, imports, publish streams, the other clients'
   subscriptions coming and going, locks, ls-subscriptions, and whole sessions starting and ending (which are
   runs of requests: SessionEnd.v) are added: the channel of a live subscription carries, in order, exactly one
   event per accepted change that concerns it. *)
From WB Require Import Base.Str Base.Json Model.Key Model.Consts Model.Store Model.Subs Model.Entry Model.Core Proofs.Frame
  Proofs.StoreFacts Proofs.TreeInv Proofs.GoodNames Proofs.SubsFacts Proofs.CoreFacts Proofs.C03Proof Proofs.StreamProof
  Proofs.C01Proof Proofs.LockHistory Proofs.SessionEnd Proofs.SessionTrace.
From Coq Require Import Lia Permutation.


Definition FreshI (s : core) : Prop := forall x, In x (all_subs (subs s)) -> s_inst x < next_inst s.
Definition Registered (s : core) (sb : subscriber) : Prop := In sb (subs_at (subs s) (s_pat sb)).

Record K (s : core) : Prop := { k_inv : Inv s; k_sinv : SInv s; k_ui : UI s; k_fresh : FreshI s }.

(* a channel nobody owns, and that no later subscription will get *)
Definition Gone (s : core) (i : N) : Prop :=
  (forall x, In x (all_subs (subs s)) -> s_inst x <> i) /\ i < next_inst s.

Lemma K_init : K init.
Proof. split; [exact Inv_init|exact SInv_init|constructor|intros x []]. Qed.

Lemma K_data s s' : Inv s' -> subs s' = subs s -> next_inst s <= next_inst s' -> K s -> K s'.
Proof.
  intros HI' Es Hn [HI HS HU HF]. split; [exact HI'| | |].
  - unfold SInv in *. now rewrite Es.
  - unfold UI in *. now rewrite Es.
  - intros x Hx. rewrite Es in Hx. specialize (HF x Hx). lia.
Qed.

Lemma Registered_fresh s sb : K s -> Registered s sb -> s_inst sb < next_inst s.
Proof. intros HK HR. exact (k_fresh s HK sb (subs_at_all _ _ _ (proj1 (k_sinv s HK)) HR)). Qed.

Lemma K_add s sb m :
  K s -> s_inst sb = next_inst s -> K (set_subs s (add_subscriber (s_pat sb) sb (subs s)) m (next_inst s + 1)).
Proof.
  intros [HI HS HU HF] Hi. split; [exact HI|now apply SInv_add| |].
  - apply (Permutation_NoDup (l := map s_inst (sb :: all_subs (subs s)))).
    + apply Permutation_map, Permutation_sym, all_subs_add.
    + cbn [map]. constructor; [|exact HU]. intros Hin. apply in_map_iff in Hin as (x & E & Hx).
      specialize (HF x Hx). lia.
  - intros x Hx. cbn [subs set_subs next_inst] in *.
    apply (Permutation_in _ (all_subs_add _ _ _)) in Hx as [<-|Hx]; [lia|]. specialize (HF x Hx). lia.
Qed.

Lemma K_remove s pat c t m : K s -> K (set_subs s (remove_id pat c t (subs s)) m (next_inst s)).
Proof.
  intros [HI HS HU HF]. pose proof (all_subs_remove pat c t (subs s)) as Hsub. split.
  - exact HI.
  - now apply SInv_remove.
  - exact (sub_of_NoDup_map s_inst _ _ Hsub HU).
  - intros x Hx. apply HF. exact (sub_of_In _ _ _ Hsub Hx).
Qed.

Lemma subs_at_remove_other pat c t n x :
  In x (subs_at n (s_pat x)) -> (s_client x, s_tid x) <> (c, t) -> In x (subs_at (remove_id pat c t n) (s_pat x)).
Proof.
  intros Hx Hid. rewrite subs_at_remove. destruct (kpath_eqb pat (s_pat x)); [|exact Hx]. apply filter_In. split; [exact Hx|].
  unfold same_id. destruct (N.eqb_spec (s_client x) c) as [E1|]; [|reflexivity].
  destruct (N.eqb_spec (s_tid x) t) as [E2|]; [|reflexivity]. exfalso. apply Hid. now rewrite E1, E2.
Qed.

Record change := Change {
  ch_path : list str; ch_key : str; ch_val : json; ch_changed : bool; ch_deleted : bool }.

Definition notify_all (s : core) (cs : list change) : list (N * event) :=
  flat_map (fun c => notify s (ch_path c) (ch_key c) (ch_val c) (ch_changed c) (ch_deleted c)) cs.

Definition wanted (sb : subscriber) (cs : list change) : list event :=
  flat_map (fun c => if wants sb (ch_path c) (ch_changed c)
                     then [event_for sb (ch_key c) (ch_val c) (ch_deleted c)] else []) cs.

Lemma notify_all_channel s sb cs :
  SInv s -> UI s -> Registered s sb -> chan (s_inst sb) (notify_all s cs) = wanted sb cs.
Proof.
  intros HS HU HR. induction cs as [|c cs IH]; [reflexivity|].
  cbn [notify_all wanted flat_map]. rewrite chan_app. fold (notify_all s cs). fold (wanted sb cs).
  now rewrite IH, (notify_channel s sb _ _ _ _ _ HS HU HR).
Qed.

Lemma notify_all_absent s i cs :
  wfs (subs s) -> (forall x, In x (all_subs (subs s)) -> s_inst x <> i) -> chan i (notify_all s cs) = [].
Proof.
  intros Hw Ha. induction cs as [|c cs IH]; [reflexivity|]. cbn [notify_all flat_map]. rewrite chan_app.
  fold (notify_all s cs). now rewrite IH, notify_absent.
Qed.

(* the snapshot of a new subscription goes to the next instance, which is nobody's channel yet *)
Lemma chan_fresh i (inst : N) (ev : list event) : i <> inst -> chan i (map (pair inst) ev) = [].
Proof.
  intros Hne. unfold chan. induction ev as [|e ev IH]; [reflexivity|]. cbn [map filter fst].
  destruct (N.eqb_spec inst i); [congruence|exact IH].
Qed.

Definition del_change (m : list str * entry) : change :=
  Change (fst m) (key_of (fst m)) (entry_val (snd m)) true true.
Definition imp_change (x : list str * entry * bool) : change :=
  Change (fst (fst x)) (import_key (fst (fst x))) (entry_val (snd (fst x))) (snd x) false.

Lemma notify_deleted_exact s' (ms : list (list str * entry)) :
  Forall (fun m => fst m <> [] /\ Forall good_seg (fst m)) ms ->
  notify_deleted s' ms = Ok (notify_all s' (map del_change ms)).
Proof.
  induction 1 as [|m ms [Hne Hg] _ IH]; [reflexivity|].
  cbn [notify_deleted map notify_all flat_map]. unfold key_of at 1.
  rewrite (parse_join_good _ Hne Hg), IH. reflexivity.
Qed.

Lemma notify_imported_exact s' (ins : list (list str * entry * bool)) :
  Forall (fun x => fst (fst x) <> [] /\ Forall good_seg (fst (fst x))) ins ->
  notify_imported s' ins = Ok (notify_all s' (map imp_change ins)).
Proof.
  induction 1 as [|[[p e] ch] ins [Hne Hg] _ IH]; [reflexivity|]. cbn [fst snd] in *.
  cbn [notify_imported map notify_all flat_map]. unfold import_key at 1, key_of at 1.
  rewrite (parse_join_good _ Hne Hg), IH. reflexivity.
Qed.

Definition ins_changes (s : core) (c : cid) (k : str) (e : entry) (force : bool) : list change :=
  match check_read_only k c, parse_segments k with
  | None, Ok p =>
      if special_value_bad k (entry_val e) then []
      else match decide (lookup (data s) p) e force with
           | DOk _ changed _ => [Change p k (entry_val e) changed false]
           | _ => []
           end
  | _, _ => []
  end.

Definition pub_changes (k : str) (v : json) : list change :=
  match parse_segments k with Ok p => [Change p k v true false] | Err _ => [] end.

(* the accepted changes of one request, in the order the server applies them; a refused request makes none *)
Definition changes (s : core) (o : op) : list change :=
  match o with
  | OSet c k v f => ins_changes s c k (Plain v) f
  | OCSet c k v n f => ins_changes s c k (Cas v n) f
  | ODelete c k =>
      match check_read_only k c, parse_segments k with
      | None, Ok p => match lookup (data s) p with
                      | Some e => [Change p k (entry_val e) true true]
                      | None => []
                      end
      | _, _ => []
      end
  | OPDelete c pat =>
      match check_read_only pat c with
      | Some _ => []
      | None => if reach_bad (data s) (kseg_parse pat) then []
                else map del_change (collect (data s) [] (kseg_parse pat))
      end
  | OPublish k v => pub_changes k v
  | OSPub c t v => match assoc_get id_eqb ((c : N), t) (spub_keys s) with Some k => pub_changes k v | None => [] end
  | OImport j => match dec_persisted j with
                 | Some other => map imp_change (insertions (data s) (strip_sys s_SYS other))      (* $SYS is not imported (F29) *)
                 | None => []
                 end
  | _ => []
  end.

Definition elem (o : op) : Prop := match o with OConnected _ | ODisconnected _ => False | _ => True end.

(* requests that leave the subscription [sb] alone: no subscribe, psubscribe or unsubscribe under its id, and its
   client's session does not end (a second subscribe under a live id is known finding F24) *)
Definition foreign (sb : subscriber) (o : op) : Prop :=
  match o with
  | OSubscribe c t _ _ _ | OPSubscribe c t _ _ _ | OUnsubscribe c t => (s_client sb, s_tid sb) <> (c, t)
  | ODisconnected c => s_client sb <> c
  | _ => True
  end.

Lemma insert_cases s c k e f :
  (ins_changes s c k e f = [] /\ exists r, do_insert s c k e f = (s, out_res r)) \/
  exists p ex ch e',
    parse_segments k = Ok p /\ decide (lookup (data s) p) e f = DOk ex ch e' /\
    ins_changes s c k e f = [Change p k (entry_val e) ch false] /\
    do_insert s c k e f =
      (set_data s (set_at p e' (data s)) (if ex then len s else len s + 1),
       Output RUnit (notify s p k (entry_val e) ch false)
              (notify_ls s (flat_map (fun pre => match ls_at (set_at p e' (data s)) pre with Some l => [(pre, l)] | None => [] end)
                                     (created_at [] p (Some (data s))))) [] []).
Proof.
  unfold ins_changes, do_insert. destruct (check_read_only k c); [left; eauto|].
  destruct (parse_segments k) as [p|] eqn:Ep; [|left; eauto]. destruct (special_value_bad k (entry_val e)); [left; eauto|].
  destruct (decide (lookup (data s) p) e f) as [ex ch e'| |] eqn:Ed; [|left; eauto|left; eauto].
  right. now exists p, ex, ch, e'.
Qed.

(* a delete that finds nothing still stores [del_at] of the tree, which on a clean tree is the tree itself (del_at_absent) *)
Lemma delete_cases s c k :
  Inv s ->
  (changes s (ODelete c k) = [] /\ exists code, do_delete s c k = (s, out_res (RErr code))) \/
  exists p e,
    parse_segments k = Ok p /\ lookup (data s) p = Some e /\
    changes s (ODelete c k) = [Change p k (entry_val e) true true] /\
    do_delete s c k = (set_data s (del_at p (data s)) (len s - 1),
                       Output (RValue (entry_val e)) (notify s p k (entry_val e) true true)
                              (notify_ls s (del_notes [] p (data s))) [] []).
Proof.
  intros (Hw & Hc & _). cbn [changes]. unfold do_delete. destruct (check_read_only k c); [left; eauto|].
  destruct (parse_segments k) as [p|] eqn:Ep; [|left; eauto].
  rewrite (proj2 (root_ok_spec _) (cleann_del_at p _ Hc)). cbn [negb].
  destruct (lookup (data s) p) as [e|] eqn:El; [right; now exists p, e|left].
  rewrite (del_at_absent p _ Hw Hc El), set_data_id. eauto.
Qed.

Lemma pdelete_cases s c pat :
  Inv s ->
  let ms := collect (data s) [] (kseg_parse pat) in
  let r := delm (data s) [] (kseg_parse pat) in
  (changes s (OPDelete c pat) = [] /\ exists code, do_pdelete s c false pat = (s, out_res (RErr code))) \/
  (changes s (OPDelete c pat) = map del_change ms /\
   do_pdelete s c false pat =
     (set_data s (dr_node r) (len s - N.of_nat (length ms)),
      Output (RKvs (map kv_of ms)) (notify_all s (map del_change ms)) (notify_ls s (dr_notes r)) [] [])).
Proof.
  intros (Hw & Hc & Hg & Hr). cbn [changes]. unfold do_pdelete.
  destruct (check_read_only pat c); [left; eauto|]. destruct (reach_bad (data s) (kseg_parse pat)); [left; eauto|].
  right. rewrite (proj2 (root_ok_spec _) (cleann_delm (data s) [] (kseg_parse pat) Hc)), delm_matches. cbn [negb].
  now rewrite notify_deleted_exact by now apply collect_keys_good.
Qed.

Lemma import_cases s j other0 :
  dec_persisted j = Some other0 -> good_import other0 ->
  let other := strip_sys s_SYS other0 in
  changes s (OImport j) = map imp_change (insertions (data s) other) /\
  do_import s j =
    (set_data s (merge (data s) other) (count_values (merge (data s) other)),
     Output (RImported (map (fun x => (import_key (fst (fst x)), snd (fst x), snd x)) (insertions (data s) other)))
            (notify_all s (map imp_change (insertions (data s) other))) [] [] []).
Proof.
  intros Ed Hgood. cbn [changes]. unfold do_import. rewrite Ed. cbv zeta. split; [reflexivity|].
  destruct (good_import_strip other0 Hgood) as (Hwo & Hgo & Hro).
  rewrite notify_imported_exact; [reflexivity|].
  unfold insertions. rewrite Forall_map, entries_collect. now apply collect_keys_good.
Qed.

(* [l]: the snapshot of a subscribe or psubscribe, sent under the next instance *)
Theorem step_events s o :
  Inv s -> elem o -> import_ok o ->
  exists l, o_events (snd (step s o)) = map (pair (next_inst s)) l ++ notify_all s (changes s o).
Proof.
  intros HI He Himp.
  assert (Hins : forall c k e f, o_events (snd (do_insert s c k e f)) = notify_all s (ins_changes s c k e f)).
  { intros c k e f. destruct (insert_cases s c k e f) as [(-> & r & ->)|(p & ex & ch & e' & _ & _ & -> & ->)]; [reflexivity|].
    symmetry. apply app_nil_r. }
  assert (Hpub : forall k v, o_events (snd (do_publish s k v)) = notify_all s (pub_changes k v)).
  { intros k v. unfold do_publish, pub_changes. destruct (parse_segments k); [symmetry; apply app_nil_r|reflexivity]. }
  pose proof (step_out s o) as Ho.
  (* reads, locks and ls-subscriptions send no event: by computation, or by [step_out]; left are the writes, the
     publishes and the three subscription requests *)
  destruct o; try contradiction; cbn [step part_of] in *;
    try (exists []; reflexivity); try (exists []; exact (proj1 Ho)).
  - exists []. exact (Hins c k (Plain v) force).
  - exists []. exact (Hins c k (Cas v ver) force).
  - exists []. destruct (delete_cases s c k HI) as [(-> & code & ->)|(p & e & _ & _ & -> & ->)]; try reflexivity.
    symmetry. apply app_nil_r.
  - exists []. destruct (pdelete_cases s c p HI) as [(-> & code & ->)|(-> & ->)]; reflexivity.
  - exists []. exact (Hpub k v).
  - exists []. cbn [changes]. unfold do_spub. destruct (assoc_get id_eqb ((c : N), t) (spub_keys s)) as [key|]; [apply Hpub|reflexivity].
  - exists []. destruct (dec_persisted j) as [other0|] eqn:Ed.
    + now destruct (import_cases s j other0 Ed (Himp other0 Ed)) as (-> & ->).
    + cbn [changes]. unfold do_import. now rewrite Ed.
  - destruct (subscribe_cases s c t k unique live) as [code|l]; [now exists []|exists l]. symmetry. apply app_nil_r.
  - destruct (psubscribe_cases s c t p unique live) as [code|l]; [now exists []|exists l]. symmetry. apply app_nil_r.
  - exists []. unfold do_unsubscribe. now destruct (assoc_get id_eqb (c, t) (subscriptions s)).
Qed.

Lemma subs_cases s o :
  elem o ->
  subs (fst (step s o)) = subs s \/
  (exists sb m, s_inst sb = next_inst s /\
                fst (step s o) = set_subs s (add_subscriber (s_pat sb) sb (subs s)) m (next_inst s + 1)) \/
  (exists pat c t m, o = OUnsubscribe c t /\ fst (step s o) = set_subs s (remove_id pat c t (subs s)) m (next_inst s)).
Proof.
  intros He. destruct o; try contradiction; try (left; apply step_keeps_subs; discriminate); cbn [step].
  - destruct (subscribe_cases s c t k unique live) as [code|l]; [now left|right; left].
    now exists (Subscriber c t (next_inst s) (kseg_parse k) unique false), (assoc_set id_eqb (c, t) (kseg_parse k) (subscriptions s)).
  - destruct (psubscribe_cases s c t p unique live) as [code|l]; [now left|right; left].
    now exists (Subscriber c t (next_inst s) (kseg_parse p) unique true), (assoc_set id_eqb (c, t) (kseg_parse p) (subscriptions s)).
  - unfold do_unsubscribe. destruct (assoc_get id_eqb (c, t) (subscriptions s)) as [pat|]; [right; right|now left].
    now exists pat, c, t, (assoc_del id_eqb (c, t) (subscriptions s)).
Qed.

Lemma elem_K s o : K s -> elem o -> import_ok o -> o_res (snd (step s o)) <> RCrash -> K (fst (step s o)).
Proof.
  intros HK He Himp Hnc.
  destruct (subs_cases s o He) as [Es|[(nsb & m & Hi & ->)|(pat & c & t & m & _ & ->)]].
  - apply (K_data s); [|exact Es|apply step_mono|exact HK]. pose proof (k_inv s HK) as HI.
    assert (Hcase : c01_op o \/ other_op o) by (destruct o; cbn; try tauto; contradiction).
    destruct Hcase as [Hc|Ho]; [exact (proj1 (step_refines0 s o HI Hc Himp Hnc))|].
    unfold Inv in *. now rewrite (other_data_same s o Ho).
  - now apply K_add.
  - now apply K_remove.
Qed.

Lemma Registered_step s sb o : elem o -> foreign sb o -> Registered s sb -> Registered (fst (step s o)) sb.
Proof.
  intros He Hf HR. unfold Registered.
  destruct (subs_cases s o He) as [->|[(nsb & m & _ & ->)|(pat & c & t & m & -> & ->)]]; cbn [subs set_subs].
  - exact HR.
  - apply In_subs_at_add. now left.
  - now apply subs_at_remove_other.
Qed.

Lemma Gone_step s i o : elem o -> Gone s i -> Gone (fst (step s o)) i.
Proof.
  intros He (Ha & Hi). split; [|pose proof (step_mono s o); lia].
  destruct (subs_cases s o He) as [->|[(nsb & m & Hn & ->)|(pat & c & t & m & _ & ->)]]; cbn [subs set_subs].
  - exact Ha.
  - intros x Hx. apply (Permutation_in _ (all_subs_add _ _ _)) in Hx as [<-|Hx]; [lia|now apply Ha].
  - intros x Hx. apply Ha. exact (sub_of_In _ _ _ (all_subs_remove pat c t (subs s)) Hx).
Qed.

Theorem elem_step s sb o :
  K s -> Registered s sb -> elem o -> import_ok o ->
  chan (s_inst sb) (o_events (snd (step s o))) = wanted sb (changes s o).
Proof.
  intros HK HR He Himp. destruct (step_events s o (k_inv s HK) He Himp) as (l & ->).
  pose proof (Registered_fresh s sb HK HR) as Hlt.
  now rewrite chan_app, (notify_all_channel s sb _ (k_sinv s HK) (k_ui s HK) HR), chan_fresh by lia.
Qed.

Lemma elem_silent s i o :
  K s -> Gone s i -> elem o -> import_ok o -> chan i (o_events (snd (step s o))) = [].
Proof.
  intros HK (Ha & Hi) He Himp. destruct (step_events s o (k_inv s HK) He Himp) as (l & ->).
  now rewrite chan_app, (notify_all_absent s i _ (proj1 (k_sinv s HK)) Ha), chan_fresh by lia.
Qed.

Fixpoint wanted_run (sb : subscriber) (s : core) (ops : list op) : list event :=
  match ops with
  | [] => []
  | o :: ops' => wanted sb (changes s o) ++ wanted_run sb (fst (step s o)) ops'
  end.

Lemma chan_evs_cons i s o ops :
  chan i (evs_of (trace s (o :: ops))) = chan i (o_events (snd (step s o))) ++ chan i (evs_of (trace (fst (step s o)) ops)).
Proof. cbn [trace evs_of flat_map]. now rewrite chan_app. Qed.

Lemma nocrash_cons s o ops :
  nocrash (trace s (o :: ops)) -> o_res (snd (step s o)) <> RCrash /\ nocrash (trace (fst (step s o)) ops).
Proof. intros H. split; [apply crash_res, H; now left|intros x Hx; apply H; now right]. Qed.

Theorem run_elem ops : forall s,
  K s -> Forall elem ops -> Forall import_ok ops -> nocrash (trace s ops) ->
  K (final s ops) /\
  (forall sb, Registered s sb -> Forall (foreign sb) ops ->
     chan (s_inst sb) (evs_of (trace s ops)) = wanted_run sb s ops /\ Registered (final s ops) sb) /\
  (forall i, Gone s i -> chan i (evs_of (trace s ops)) = [] /\ Gone (final s ops) i).
Proof.
  induction ops as [|o ops IH]; intros s HK He Hi Hnc; [split; [exact HK|split; [intros sb HR _|intros i HG]; now split]|].
  apply Forall_cons_iff in He as (He & Hes). apply Forall_cons_iff in Hi as (Hi & His). apply nocrash_cons in Hnc as (Hc & Hnc).
  change (final s (o :: ops)) with (final (fst (step s o)) ops).
  destruct (IH _ (elem_K s o HK He Hi Hc) Hes His Hnc) as (HKf & Hreg & Hgone). split; [exact HKf|]. split.
  - intros sb HR Hf. apply Forall_cons_iff in Hf as (Hf & Hfs). rewrite chan_evs_cons, (elem_step s sb o HK HR He Hi).
    destruct (Hreg sb (Registered_step s sb o He Hf HR) Hfs) as (-> & HRf). now split.
  - intros i HG. rewrite chan_evs_cons, (elem_silent s i o HK HG He Hi). exact (Hgone i (Gone_step s i o He HG)).
Qed.

Definition conn_prep (s : core) (c : cid) : core := set_clients s (clients s ++ [c]).
Definition conn_ops (s : core) (c : cid) : list op :=
  [OSet 0 (topic [s_SYS; s_clients]) (jnum (N.of_nat (length (clients s ++ [c])))) true;
   OSet 0 (topic [s_SYS; s_clients; client_str c; s_protocol]) (JStr s_TCP) true;
   OSet 0 (topic [s_SYS; s_clients; client_str c; s_address]) JNull true].

(* every request is a run of elementary requests from a state with the same data and subscriber tree *)
Definition expand (s : core) (o : op) : core * list op :=
  match o with
  | OConnected c => if N.eqb c 0 || existsb (N.eqb c) (clients s) then (s, []) else (conn_prep s c, conn_ops s c)
  | ODisconnected c => if N.eqb c 0 then (s, []) else (prep s c, end_ops s c)
  | _ => (s, [o])
  end.

Lemma connected_is_run s c :
  N.eqb c 0 = false -> existsb (N.eqb c) (clients s) = false ->
  Runs (do_connected s c) (conn_prep s c) (conn_ops s c).
Proof.
  intros H0 Hx. unfold do_connected. rewrite H0, Hx. apply (Runs_out _ [] []).
  unfold conn_ops, conn_prep. change [?a; ?b; ?d] with (([a] ++ [b]) ++ [d]).
  apply Runs_seq2; [apply Runs_seq2|]; intros; apply Runs_insert.
Qed.

Theorem expand_runs s o : Runs (step s o) (fst (expand s o)) (snd (expand s o)).
Proof.
  destruct o; try apply Runs_step.
  - cbn [step expand]. destruct (N.eqb c 0) eqn:E0; cbn [orb].
    + unfold do_connected. rewrite E0. intros Hc. discriminate.
    + destruct (existsb (N.eqb c) (clients s)) eqn:Ex; cbn [fst snd].
      * unfold do_connected. rewrite E0, Ex. apply Runs_nil.
      * now apply connected_is_run.
  - cbn [step expand]. destruct (N.eqb c 0) eqn:E0; cbn [fst snd].
    + unfold do_disconnected. rewrite E0. intros Hc. discriminate.
    + apply disconnected_is_run.
Qed.

Lemma expand_Forall (P : op -> Prop) s o :
  (elem o -> P o) -> (forall c k v f, P (OSet c k v f)) ->
  (forall c o', o = ODisconnected c -> end_kind c o' -> P o') ->
  Forall P (snd (expand s o)).
Proof.
  intros H1 H2 H3. destruct o; try (constructor; [now apply H1|constructor]); cbn [expand].
  - destruct (_ || _)%bool; cbn [snd]; [constructor|]. repeat constructor; apply H2.
  - destruct (N.eqb c 0); cbn [snd]; [constructor|]. apply Forall_forall. intros o' Ho'. apply (H3 c); [reflexivity|]. now apply (end_ops_kind s).
Qed.

Lemma expand_foreign s o sb : foreign sb o -> Forall (foreign sb) (snd (expand s o)).
Proof.
  intros Hf. apply expand_Forall; [trivial|intros; exact I|]. intros c o' -> Hk. cbn [foreign] in Hf.
  destruct o'; try contradiction; try exact I. cbn in Hk. subst c0. intros [= E _]. contradiction.
Qed.

Lemma expand_shape s o :
  data (fst (expand s o)) = data s /\ subs (fst (expand s o)) = subs s /\
  next_inst (fst (expand s o)) = next_inst s /\
  Forall elem (snd (expand s o)) /\
  (import_ok o -> Forall import_ok (snd (expand s o))).
Proof.
  assert (Hst : data (fst (expand s o)) = data s /\ subs (fst (expand s o)) = subs s /\
                next_inst (fst (expand s o)) = next_inst s).
  { destruct o; try (repeat split; fail); cbn [expand].
    - destruct (_ || _)%bool; repeat split.
    - destruct (N.eqb c 0); [repeat split|]. destruct (prep_same s c) as (Ed & _ & Es & _ & _ & _ & En). auto. }
  destruct Hst as (Ed & Es & En). repeat split; try assumption.
  - apply expand_Forall; [trivial|intros; exact I|]. intros c o' _ Hk. now destruct o'.
  - intros Hi. apply expand_Forall; [trivial|intros; exact I|]. intros c o' _ Hk. now destruct o'.
Qed.

Definition wanted_op (sb : subscriber) (s : core) (o : op) : list event :=
  wanted_run sb (fst (expand s o)) (snd (expand s o)).

Lemma step_as_run s o :
  K s -> import_ok o -> o_res (snd (step s o)) <> RCrash ->
  let s0 := fst (expand s o) in let ops := snd (expand s o) in
  K s0 /\ data s0 = data s /\ subs s0 = subs s /\ next_inst s0 = next_inst s /\
  Forall elem ops /\ Forall import_ok ops /\ nocrash (trace s0 ops) /\
  fst (step s o) = final s0 ops /\ o_events (snd (step s o)) = evs_of (trace s0 ops).
Proof.
  intros HK Hi Hnc. cbv zeta. destruct (expand_runs s o (proj2 (crash_res _) Hnc)) as (F & Ev & _ & Nc).
  destruct (expand_shape s o) as (Ed & Es & En & Hel & Himp). split; [|repeat split; auto].
  apply (K_data s); [|exact Es|rewrite En; apply N.le_refl|exact HK]. pose proof (k_inv s HK) as HI. unfold Inv in *. now rewrite Ed.
Qed.

Theorem any_step s o :
  K s -> import_ok o -> o_res (snd (step s o)) <> RCrash ->
  K (fst (step s o)) /\
  (forall sb, Registered s sb -> foreign sb o ->
     chan (s_inst sb) (o_events (snd (step s o))) = wanted_op sb s o /\ Registered (fst (step s o)) sb) /\
  (forall i, Gone s i -> chan i (o_events (snd (step s o))) = [] /\ Gone (fst (step s o)) i).
Proof.
  intros HK Hi Hnc. destruct (step_as_run s o HK Hi Hnc) as (HK0 & _ & Es & En & Hel & Himp & Nc & -> & ->).
  destruct (run_elem _ _ HK0 Hel Himp Nc) as (HKf & Hreg & Hgone). split; [exact HKf|]. split.
  - intros sb HR Hf. apply Hreg; [unfold Registered; now rewrite Es|now apply expand_foreign].
  - intros i HG. apply Hgone. unfold Gone in *. now rewrite Es, En.
Qed.

Fixpoint wanted_stream (sb : subscriber) (s : core) (os : list op) : list event :=
  match os with
  | [] => []
  | o :: os' => wanted_op sb s o ++ wanted_stream sb (fst (step s o)) os'
  end.

(* every history of requests of every kind after the registration, as long as nobody subscribes or unsubscribes
   under the subscription's own id and its client's session goes on: the channel carries, in the order the server
   applied them, exactly one event per accepted change that concerns the subscription *)
Theorem stream_all os : forall s sb,
  K s -> Registered s sb -> Forall (foreign sb) os -> Forall import_ok os -> no_crash_run s os ->
  stream (s_inst sb) s os = wanted_stream sb s os.
Proof.
  induction os as [|o os IH]; intros s sb HK HR Hf Hi Hnc; [reflexivity|].
  apply Forall_cons_iff in Hf as (Hf & Hfs). apply Forall_cons_iff in Hi as (Hi & His).
  destruct Hnc as (Hc & Hrest). destruct (any_step s o HK Hi Hc) as (HK' & H2 & _).
  destruct (H2 sb HR Hf) as (Hch & HR'). cbn [stream wanted_stream]. rewrite Hch. f_equal.
  now apply IH.
Qed.

Theorem reach_K os : forall s, K s -> Forall import_ok os -> no_crash_run s os -> K (final s os).
Proof.
  induction os as [|o os IH]; intros s HK Hi Hnc; [exact HK|].
  apply Forall_cons_iff in Hi as (Hi & His). destruct Hnc as (Hc & Hrest).
  change (final s (o :: os)) with (final (fst (step s o)) os). apply IH; try assumption.
  exact (proj1 (any_step s o HK Hi Hc)).
Qed.

Lemma subscribed_registers s c t k u ps r inst :
  subscribed s c t k u ps r -> o_res (snd r) = RSub inst ->
  inst = next_inst s /\ Registered (fst r) (Subscriber c t inst (kseg_parse k) u ps).
Proof.
  intros [code|l]; cbn [fst snd o_res out_res]; [discriminate|]. intros [= <-]. split; [reflexivity|].
  apply In_subs_at_add. now right.
Qed.

Theorem subscribe_registers s c t k unique live inst :
  K s -> o_res (snd (do_subscribe s c t k unique live)) = RSub inst ->
  inst = next_inst s /\ Registered (fst (do_subscribe s c t k unique live)) (Subscriber c t inst (kseg_parse k) unique false).
Proof. intros _. exact (subscribed_registers s c t k unique false _ inst (subscribe_cases s c t k unique live)). Qed.

Theorem psubscribe_registers s c t p unique live inst :
  K s -> o_res (snd (do_psubscribe s c t p unique live)) = RSub inst ->
  inst = next_inst s /\ Registered (fst (do_psubscribe s c t p unique live)) (Subscriber c t inst (kseg_parse p) unique true).
Proof. intros _. exact (subscribed_registers s c t p unique true _ inst (psubscribe_cases s c t p unique live)). Qed.

Theorem silent_all os : forall s i,
  K s -> Gone s i -> Forall import_ok os -> no_crash_run s os -> stream i s os = [].
Proof.
  induction os as [|o os IH]; intros s i HK HG Hi Hnc; [reflexivity|].
  apply Forall_cons_iff in Hi as (Hi & His). destruct Hnc as (Hc & Hrest).
  destruct (any_step s o HK Hi Hc) as (HK' & _ & H3). destruct (H3 i HG) as (Hch & HG').
  cbn [stream]. rewrite Hch. now apply IH.
Qed.

(* an accepted unsubscribe leaves the channel of the subscription ownerless (its id must still map to its own
   pattern: known finding F24 otherwise) *)
Theorem unsubscribe_gone s sb :
  K s -> Registered s sb -> assoc_get id_eqb (s_client sb, s_tid sb) (subscriptions s) = Some (s_pat sb) ->
  Gone (fst (do_unsubscribe s (s_client sb) (s_tid sb))) (s_inst sb).
Proof.
  intros HK HR Hmap. destruct (unsubscribe_removes s sb (k_sinv s HK) (k_ui s HK) HR Hmap) as (_ & _ & Ha).
  split; [exact Ha|]. unfold do_unsubscribe. rewrite Hmap. cbn [fst next_inst set_subs]. now apply Registered_fresh.
Qed.
