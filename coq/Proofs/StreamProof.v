(* C03, history level: the stream of one subscription = for every later request, in order, exactly the event the
   accepted change implies (once, or none when the change does not concern it); after an accepted unsubscribe, nothing. *)
From WB Require Import Base.ListFacts Base.Str Model.Key Model.Store Model.Match Model.Subs Model.Entry Model.Core
  Proofs.Frame Proofs.SubsFacts Proofs.C03Proof.

Lemma add_matches_incl key : forall n sb, wfs n -> In sb (add_matches n key) -> In sb (all_subs n).
Proof.
  intros n sb Hw H. apply (add_matches_spec key n sb Hw) in H as (P & HP & _). exact (subs_at_all n P sb Hw HP).
Qed.

Theorem add_matches_nodup key : forall n, wfs n -> NoDup (all_subs n) -> NoDup (add_matches n key).
Proof.
  induction key as [|e rest IH]; intros [s cs] Hwf Hnd.
  - cbn [add_matches ssubs]. rewrite all_subs_unfold in Hnd. now apply NoDup_app_inv in Hnd.
  - apply wfs_unfold in Hwf as [Hk Hwc]. rewrite Forall_forall in Hwc.
    rewrite all_subs_unfold in Hnd. apply NoDup_app_inv in Hnd as (_ & Hfm & _).
    pose proof (flat_map_NoDup _ cs Hfm) as Hfl.
    (* the three children consulted are distinct children of the node: what each contributes lies within its
       own subscribers, which are duplicate-free and disjoint from those of the others *)
    assert (Hone : forall k (g : snode -> list subscriber), (forall c, wfs c -> NoDup (all_subs c) -> NoDup (g c)) -> NoDup (opt_app (find_k k cs) g)).
    { intros k g Hg. destruct (find_k k cs) as [c|] eqn:E; [|constructor]. pose proof (find_k_In _ _ _ E) as Hin.
      apply Hg; [exact (Hwc _ Hin)|exact (proj1 (Hfl _ _ Hin Hin))]. }
    assert (Hdis : forall k1 k2 (g1 g2 : snode -> list subscriber), k1 <> k2 ->
              (forall c x, wfs c -> In x (g1 c) -> In x (all_subs c)) ->
              (forall c x, wfs c -> In x (g2 c) -> In x (all_subs c)) ->
              forall x, In x (opt_app (find_k k1 cs) g1) -> ~ In x (opt_app (find_k k2 cs) g2)).
    { intros k1 k2 g1 g2 Hne H1 H2 x Hx Hy.
      destruct (find_k k1 cs) as [c1|] eqn:E1; [|contradiction]. destruct (find_k k2 cs) as [c2|] eqn:E2; [|contradiction].
      pose proof (find_k_In _ _ _ E1) as I1. pose proof (find_k_In _ _ _ E2) as I2.
      apply (proj2 (Hfl _ _ I1 I2) ltac:(congruence) x); [exact (H1 _ _ (Hwc _ I1) Hx)|exact (H2 _ _ (Hwc _ I2) Hy)]. }
    pose proof (fun c x (Hc : wfs c) => add_matches_incl rest c x Hc) as Hinc.
    (* three parts (the children under +, #, and the literal): each duplicate-free, the two inner ones disjoint, the
       first disjoint from both *)
    cbn [add_matches skids]. apply NoDup_app_intro; [|apply NoDup_app_intro|].
    + apply Hone. intros c. apply IH.
    + apply Hone. auto.
    + apply Hone. intros c. apply IH.
    + apply Hdis; [discriminate|auto|exact Hinc].
    + intros x Hx Hy. apply in_app_or in Hy as [Hy|Hy].
      * exact (Hdis Wild Multi _ _ ltac:(discriminate) Hinc (fun _ _ _ H => H) x Hx Hy).
      * exact (Hdis Wild (Reg e) _ _ ltac:(discriminate) Hinc Hinc x Hx Hy).
Qed.

Definition chan (i : N) (evs : list (N * event)) : list event :=
  map snd (filter (fun ie => N.eqb (fst ie) i) evs).

Lemma chan_app i a b : chan i (a ++ b) = chan i a ++ chan i b.
Proof. unfold chan. now rewrite filter_app, map_app. Qed.

(* channels are not shared: instances are unique among the registered subscribers *)
Definition UI (s : core) : Prop := NoDup (map s_inst (all_subs (subs s))).

Lemma chan_map i (g : subscriber -> event) l :
  chan i (map (fun x => (s_inst x, g x)) l) = map g (filter (fun x => N.eqb (s_inst x) i) l).
Proof.
  unfold chan. induction l as [|x l IH]; [reflexivity|]. cbn [map filter fst].
  destruct (N.eqb (s_inst x) i); cbn [map snd]; now rewrite IH.
Qed.

Lemma chan_notify i s path key v changed deleted :
  chan i (notify s path key v changed deleted) =
  map (fun x => event_for x key v deleted)
      (filter (fun x => N.eqb (s_inst x) i)
              (filter (fun x => changed || negb (s_unique x)) (add_matches (subs s) path))).
Proof. exact (chan_map i (fun x => event_for x key v deleted) _). Qed.

Definition wants (sb : subscriber) (path : list str) (changed : bool) : bool :=
  sub_match (s_pat sb) path && (changed || negb (s_unique sb)).

Theorem notify_channel s sb path key v changed deleted :
  SInv s -> UI s -> In sb (subs_at (subs s) (s_pat sb)) ->
  chan (s_inst sb) (notify s path key v changed deleted) =
    if wants sb path changed then [event_for sb key v deleted] else [].
Proof.
  intros [Hw Hp] Hui Hreg. rewrite chan_notify.
  set (l := filter (fun x => changed || negb (s_unique x)) (add_matches (subs s) path)).
  assert (Hin : In sb l <-> wants sb path changed = true).
  { unfold l, wants. rewrite filter_In, (add_matches_spec path _ sb Hw), andb_true_iff. split.
    - intros ((P & HP & Hm) & Hf). rewrite (Hp _ _ HP). now split.
    - intros (Hm & Hf). split; [now exists (s_pat sb)|exact Hf]. }
  assert (Hu : forall x, In x l -> N.eqb (s_inst x) (s_inst sb) = true -> x = sb).
  { intros x Hx E. apply filter_In in Hx as [Hx _]. apply N.eqb_eq in E.
    apply (NoDup_map_eq s_inst _ x sb Hui); [exact (add_matches_incl path _ x Hw Hx)|exact (subs_at_all _ _ _ Hw Hreg)|exact E]. }
  destruct (wants sb path changed).
  - rewrite (filter_unique _ sb l); [reflexivity| |now apply Hin|apply N.eqb_refl|exact Hu].
    apply NoDup_filter, add_matches_nodup; [exact Hw|exact (NoDup_map_inv _ _ Hui)].
  - rewrite filter_none; [reflexivity|]. intros x Hx. destruct (N.eqb (s_inst x) (s_inst sb)) eqn:E; [|reflexivity].
    rewrite (Hu x Hx E) in Hx. apply Hin in Hx. discriminate.
Qed.

Lemma notify_absent s i path key v changed deleted :
  wfs (subs s) -> (forall x, In x (all_subs (subs s)) -> s_inst x <> i) ->
  chan i (notify s path key v changed deleted) = [].
Proof.
  intros Hw Ha. rewrite chan_notify, filter_none; [reflexivity|].
  intros x Hx. apply filter_In in Hx as [Hx _]. apply N.eqb_neq, Ha. now apply (add_matches_incl path).
Qed.

Definition expected_insert (sb : subscriber) (s : core) (c : cid) (k : str) (e : entry) (force : bool) : list event :=
  match check_read_only k c, parse_segments k with
  | None, Ok p =>
      if special_value_bad k (entry_val e) then []
      else match decide (lookup (data s) p) e force with
           | DOk _ changed _ => if wants sb p changed then [event_for sb k (entry_val e) false] else []
           | _ => []
           end
  | _, _ => []
  end.

Definition expected (sb : subscriber) (s : core) (o : op) : list event :=
  match o with
  | OSet c k v f => expected_insert sb s c k (Plain v) f
  | OCSet c k v n f => expected_insert sb s c k (Cas v n) f
  | ODelete c k =>
      match check_read_only k c, parse_segments k with
      | None, Ok p => match lookup (data s) p with
                      | Some e => if wants sb p true then [event_for sb k (entry_val e) true] else []
                      | None => []
                      end
      | _, _ => []
      end
  | OPublish k v =>
      match parse_segments k with Ok p => if wants sb p true then [event_for sb k v false] else [] | Err _ => [] end
  | _ => []
  end.

Definition data_op (o : op) : Prop :=
  match o with
  | OGet _ | OCGet _ | OPGet _ | OLs _ | OPLs _ | OLen | OSet _ _ _ _ | OCSet _ _ _ _ _ | ODelete _ _ | OPublish _ _ => True
  | _ => False
  end.

Lemma data_op_subs s o : data_op o -> subs (fst (step s o)) = subs s.
Proof. intros Ho. apply step_keeps_subs; destruct o; try discriminate; contradiction. Qed.

(* the outcome [r] of a request notifies of at most one change, the one the expectation [ex] speaks of *)
Definition one_event (s : core) (r : core * output) (ex : subscriber -> list event) : Prop :=
  (o_events (snd r) = [] /\ (o_res (snd r) <> RCrash -> forall sb, ex sb = [])) \/
  exists p k v c d, o_events (snd r) = notify s p k v c d /\
                    forall sb, ex sb = if wants sb p c then [event_for sb k v d] else [].

Lemma data_events s o : data_op o -> one_event s (step s o) (fun sb => expected sb s o).
Proof.
  intros Hop.
  assert (Hins : forall c k e f, one_event s (do_insert s c k e f) (fun sb => expected_insert sb s c k e f)).
  { intros c k e f. unfold do_insert, expected_insert.
    destruct (check_read_only k c); [left; now split|]. destruct (parse_segments k) as [p|]; [|left; now split].
    destruct (special_value_bad k (entry_val e)); [left; now split|].
    destruct (decide (lookup (data s) p) e f) as [ex ch e'| |]; [|left; now split|left; now split].
    right. exists p, k, (entry_val e), ch, false. now split. }
  destruct o; try contradiction; cbn [step expected]; try (left; now split).
  - apply Hins.
  - apply Hins.
  - unfold do_delete. destruct (check_read_only k c); [left; now split|].
    destruct (parse_segments k) as [p|]; [|left; now split].
    destruct (negb (root_ok _)); [left; split; [reflexivity|intros Hnc; now elim Hnc]|].
    destruct (lookup (data s) p) as [e|]; [|left; now split]. right. exists p, k, (entry_val e), true, true. now split.
  - unfold do_publish. destruct (parse_segments k) as [p|]; [|left; now split]. right. exists p, k, v, true, false. now split.
Qed.

Fixpoint stream (i : N) (s : core) (os : list op) : list event :=
  match os with [] => [] | o :: os' => chan i (o_events (snd (step s o))) ++ stream i (fst (step s o)) os' end.
Fixpoint expected_stream (sb : subscriber) (s : core) (os : list op) : list event :=
  match os with [] => [] | o :: os' => expected sb s o ++ expected_stream sb (fst (step s o)) os' end.
Fixpoint no_crash_run (s : core) (os : list op) : Prop :=
  match os with [] => True | o :: os' => o_res (snd (step s o)) <> RCrash /\ no_crash_run (fst (step s o)) os' end.

(* every history of reads, sets, csets, deletes and publishes after the registration: the subscription's channel
   carries, in the order the server applied them, exactly one event per accepted change that concerns it -- none for
   refused requests, none for changes that leave the value as it was when it asked for unique values *)
Theorem stream_spec os : forall s sb,
  SInv s -> UI s -> In sb (subs_at (subs s) (s_pat sb)) -> Forall data_op os -> no_crash_run s os ->
  stream (s_inst sb) s os = expected_stream sb s os.
Proof.
  induction os as [|o os IH]; intros s sb HS HU Hreg Hops Hnc; [reflexivity|].
  apply Forall_cons_iff in Hops as (Ho & Hos). destruct Hnc as [Hc Hrest].
  pose proof (data_op_subs s o Ho) as Hsub. cbn [stream expected_stream]. f_equal.
  - destruct (data_events s o Ho) as [(-> & E)|(p & k & v & c & d & -> & E)]; rewrite E; trivial.
    now apply notify_channel.
  - apply IH; try assumption; unfold SInv, UI in *; now rewrite Hsub.
Qed.

(* an accepted unsubscribe takes the subscription out of the tree: provided its id still maps to its own pattern
   (no second subscribe was accepted under the same id while it was active -- known finding F24) *)
Theorem unsubscribe_removes s sb :
  SInv s -> UI s -> In sb (subs_at (subs s) (s_pat sb)) ->
  assoc_get id_eqb (s_client sb, s_tid sb) (subscriptions s) = Some (s_pat sb) ->
  let s' := fst (do_unsubscribe s (s_client sb) (s_tid sb)) in
  o_res (snd (do_unsubscribe s (s_client sb) (s_tid sb))) = RUnit /\
  SInv s' /\ (forall x, In x (all_subs (subs s')) -> s_inst x <> s_inst sb).
Proof.
  intros HS Hui Hreg Hmap. pose proof HS as [Hw Hp]. cbv zeta. unfold do_unsubscribe. rewrite Hmap. cbn [fst snd o_res out_res].
  assert (Hself : same_id (s_client sb) (s_tid sb) sb = true) by (unfold same_id; now rewrite !N.eqb_refl).
  split; [|split].
  - unfold unsubscribe_removed. rewrite subs_at_snode in Hreg. destruct (snode_at (s_pat sb) (subs s)) as [m|]; [|contradiction].
    assert (E : existsb (same_id (s_client sb) (s_tid sb)) (ssubs m) = true) by (apply existsb_exists; now exists sb).
    now rewrite E.
  - now apply SInv_remove.
  - cbn [subs set_subs]. intros x Hx E.
    (* x would be sb itself, which is not at its position any more and was at no other *)
    pose proof (sub_of_In _ _ _ (all_subs_remove _ _ _ _) Hx) as Hxa.
    rewrite (NoDup_map_eq s_inst _ x sb Hui Hxa (subs_at_all _ _ _ Hw Hreg) E) in Hx.
    apply (all_subs_spec _ _ (wfs_remove _ _ _ _ Hw)) in Hx as (Q & HQ). rewrite subs_at_remove in HQ.
    destruct (kpath_eqb_spec (s_pat sb) Q) as [_|Hne].
    + apply filter_In in HQ as [_ Hf]. now rewrite Hself in Hf.
    + apply Hne. now apply Hp.
Qed.

Theorem silent_after_unsubscribe os : forall s i,
  SInv s -> (forall x, In x (all_subs (subs s)) -> s_inst x <> i) -> Forall data_op os ->
  stream i s os = [].
Proof.
  induction os as [|o os IH]; intros s i HS Ha Hops; [reflexivity|].
  apply Forall_cons_iff in Hops as (Ho & Hos). pose proof (data_op_subs s o Ho) as Hsub. cbn [stream].
  rewrite IH; try assumption; [|unfold SInv in *; now rewrite Hsub|now rewrite Hsub]. rewrite app_nil_r.
  destruct (data_events s o Ho) as [(-> & _)|(p & k & v & c & d & -> & _)]; [reflexivity|].
  now apply notify_absent; [apply HS|].
Qed.
