(* The subscriber tree of subscribers.rs: add_matches returns exactly the subscribers registered
   at a position P with sub_match P key; what add_subscriber and remove_id do to the positions
   and to the list of all subscribers. *)
From WB Require Import Base.ListFacts Base.Str Base.StrFacts Model.Key Model.Subs Model.Match.
From Coq Require Import Permutation.

Lemma kseg_eqb_spec a b : reflect (a = b) (kseg_eqb a b).
Proof.
  destruct a as [x| |], b as [y| |]; cbn; try (constructor; congruence).
  destruct (str_eqb_spec x y); constructor; congruence.
Qed.
Lemma kseg_eqb_refl a : kseg_eqb a a = true.
Proof. destruct (kseg_eqb_spec a a); congruence. Qed.
Lemma kseg_eqb_sym a b : kseg_eqb a b = kseg_eqb b a.
Proof. destruct (kseg_eqb_spec a b), (kseg_eqb_spec b a); congruence. Qed.

Lemma kpath_eqb_spec a b : reflect (a = b) (kpath_eqb a b).
Proof. exact (list_eqb_spec kseg_eqb kseg_eqb_spec a b). Qed.

Section snode_ind'.
  Variable P : snode -> Prop.
  Hypothesis H : forall s cs, Forall (fun kc => P (snd kc)) cs -> P (SNode s cs).
  Fixpoint snode_ind' (n : snode) : P n :=
    match n with
    | SNode s cs =>
        H s cs ((fix go (cs : list (kseg * snode)) : Forall (fun kc => P (snd kc)) cs :=
                   match cs with
                   | [] => Forall_nil _
                   | (k, c) :: cs' => Forall_cons (k, c) (snode_ind' c) (go cs')
                   end) cs)
    end.
End snode_ind'.

Fixpoint wfs (n : snode) : Prop :=
  match n with
  | SNode _ cs =>
      NoDup (map fst cs) /\
      (fix go (cs : list (kseg * snode)) : Prop :=
         match cs with [] => True | (_, c) :: cs' => wfs c /\ go cs' end) cs
  end.

Lemma wfs_unfold s cs : wfs (SNode s cs) <-> NoDup (map fst cs) /\ Forall (fun kc => wfs (snd kc)) cs.
Proof.
  cbn [wfs]. apply and_iff_compat_l. induction cs as [|[k c] cs IH]; [split; constructor|].
  rewrite Forall_cons_iff, IH. reflexivity.
Qed.

Lemma find_k_In {A} k (cs : list (kseg * A)) c : find_k k cs = Some c -> In (k, c) cs.
Proof.
  induction cs as [|[k' c'] cs IH]; cbn; [discriminate|].
  destruct (kseg_eqb_spec k k') as [->|Hn]; [intros [= ->]; now left|intros H; right; now apply IH].
Qed.

Lemma In_find_k {A} k (cs : list (kseg * A)) c :
  NoDup (map fst cs) -> In (k, c) cs -> find_k k cs = Some c.
Proof.
  induction cs as [|[k' c'] cs IH]; cbn; [contradiction|].
  intros Hnd [E|Hin].
  - injection E as -> ->. now rewrite kseg_eqb_refl.
  - apply NoDup_cons_iff in Hnd as (Hni & Hnd).
    destruct (kseg_eqb_spec k k') as [->|Hn]; [|now apply IH].
    exfalso. apply Hni. change k' with (fst (k', c)). now apply in_map.
Qed.

Lemma find_upd_k {A} (d : A) k k2 f cs :
  find_k k2 (upd_k d k f cs) =
  if kseg_eqb k k2 then Some (f (match find_k k cs with Some c => c | None => d end)) else find_k k2 cs.
Proof.
  induction cs as [|[k' c] cs IH]; cbn [upd_k find_k]; [now rewrite (kseg_eqb_sym k2 k)|].
  destruct (kseg_eqb_spec k k') as [<-|Hk]; cbn [find_k]; [rewrite (kseg_eqb_sym k2 k); now destruct (kseg_eqb k k2)|].
  rewrite IH. destruct (kseg_eqb_spec k2 k') as [->|]; [|reflexivity]. destruct (kseg_eqb_spec k k'); congruence.
Qed.

Lemma map_fst_upd_k {A} (d : A) k f cs :
  map fst (upd_k d k f cs) = if existsb (kseg_eqb k) (map fst cs) then map fst cs else map fst cs ++ [k].
Proof.
  induction cs as [|[k' c] cs IH]; cbn; [reflexivity|].
  destruct (kseg_eqb k k') eqn:E; cbn; [reflexivity|]. rewrite IH.
  now destruct (existsb (kseg_eqb k) (map fst cs)).
Qed.

Lemma find_mod_k {A} k k2 (f : A -> A) cs :
  find_k k2 (mod_k k f cs) = if kseg_eqb k k2 then option_map f (find_k k cs) else find_k k2 cs.
Proof.
  induction cs as [|[k' c] cs IH]; cbn [mod_k find_k]; [now destruct (kseg_eqb k k2)|].
  destruct (kseg_eqb_spec k k') as [<-|Hk]; cbn [find_k option_map]; [rewrite (kseg_eqb_sym k2 k); now destruct (kseg_eqb k k2)|].
  rewrite IH. destruct (kseg_eqb_spec k2 k') as [->|]; [|reflexivity]. destruct (kseg_eqb_spec k k'); congruence.
Qed.

Lemma map_fst_mod_k {A} k (f : A -> A) cs : map fst (mod_k k f cs) = map fst cs.
Proof. induction cs as [|[k' c] cs IH]; cbn; [reflexivity|]. destruct (kseg_eqb k k'); cbn; [reflexivity|now rewrite IH]. Qed.

Fixpoint subs_at (n : snode) (P : list kseg) : list subscriber :=
  match P with
  | [] => ssubs n
  | k :: P' => match find_k k (skids n) with Some c => subs_at c P' | None => [] end
  end.

Lemma subs_at_snode P : forall n, subs_at n P = match snode_at P n with Some m => ssubs m | None => [] end.
Proof.
  induction P as [|k P IH]; intros [ss cs]; [reflexivity|]. cbn [subs_at snode_at skids].
  destruct (find_k k cs); [apply IH|reflexivity].
Qed.

Lemma all_subs_unfold s cs :
  all_subs (SNode s cs) = s ++ flat_map (fun kc => all_subs (snd kc)) cs.
Proof.
  cbn [all_subs]. f_equal. induction cs as [|[k c] cs IH]; cbn; [reflexivity|]. now rewrite IH.
Qed.

Theorem all_subs_spec (n : snode) sb :
  wfs n -> (In sb (all_subs n) <-> exists P, In sb (subs_at n P)).
Proof.
  induction n as [s cs IH] using snode_ind'. intros Hwf.
  apply wfs_unfold in Hwf as [Hnd Hwc]. rewrite all_subs_unfold, in_app_iff, in_flat_map.
  rewrite Forall_forall in IH, Hwc. split.
  - intros [H|([k c] & Hin & H)].
    + now exists [].
    + cbn [snd] in H. apply (IH _ Hin (Hwc _ Hin)) in H as (P & HP).
      exists (k :: P). cbn [subs_at skids]. now rewrite (In_find_k _ _ _ Hnd Hin).
  - intros ([|k P] & HP).
    + now left.
    + right. cbn [subs_at skids] in HP. destruct (find_k k cs) as [c|] eqn:Ef; [|contradiction].
      pose proof (find_k_In _ _ _ Ef) as Hin. exists (k, c). split; [assumption|].
      cbn [snd]. apply (IH _ Hin (Hwc _ Hin)). now exists P.
Qed.

Lemma subs_at_all n P sb : wfs n -> In sb (subs_at n P) -> In sb (all_subs n).
Proof. intros Hw H. apply (all_subs_spec n sb Hw). now exists P. Qed.

Theorem add_matches_spec key : forall (n : snode) sb,
  wfs n ->
  (In sb (add_matches n key) <-> exists P, In sb (subs_at n P) /\ sub_match P key = true).
Proof.
  induction key as [|e rest IH]; intros [s cs] sb Hwf.
  - cbn [add_matches ssubs]. split.
    + intros H. now exists [].
    + intros ([|k P] & HP & Hm); [exact HP|destruct k; discriminate].
  - apply wfs_unfold in Hwf as [Hnd Hwc]. rewrite Forall_forall in Hwc.
    (* what a child [c] under segment [k] contributes, and that it is the positions [k :: P] *)
    assert (Hkid : forall k (g : snode -> list subscriber) (m : list kseg -> bool),
              (forall c, wfs c -> (In sb (g c) <-> exists P, In sb (subs_at c P) /\ m P = true)) ->
              (In sb (opt_app (find_k k cs) g) <-> exists P, In sb (subs_at (SNode s cs) (k :: P)) /\ m P = true)).
    { intros k g m Hg. cbn [subs_at skids]. destruct (find_k k cs) as [c|] eqn:Ef; cbn [opt_app].
      - apply Hg, (Hwc (k, c)), find_k_In, Ef.
      - split; [intros []|intros (P & [] & _)]. }
    cbn [add_matches skids]. rewrite !in_app_iff.
    rewrite (Hkid Multi all_subs (fun _ => true)).
    2:{ intros c Hc. rewrite (all_subs_spec c sb Hc). split; [intros (P & HP); now exists P|intros (P & HP & _); now exists P]. }
    rewrite !(Hkid _ _ (fun P => sub_match P rest)) by (intros c; apply IH).
    split.
    + intros [(P & HP & Hm)|[(P & HP & Hm)|(P & HP & Hm)]].
      * now exists (Wild :: P).
      * now exists (Multi :: P).
      * exists (Reg e :: P). cbn [sub_match]. now rewrite str_eqb_refl.
    + intros ([|[x| |] P] & HP & Hm); cbn [sub_match] in Hm; [discriminate| | |].
      * apply andb_true_iff in Hm as [Hx Hm]. apply str_eqb_eq in Hx. subst x. right. right. now exists P.
      * left. now exists P.
      * right. left. now exists P.
Qed.

Theorem subs_at_add P sb : forall n Q,
  subs_at (add_subscriber P sb n) Q = if kpath_eqb P Q then subs_at n Q ++ [sb] else subs_at n Q.
Proof.
  induction P as [|k P IH]; intros [s cs] Q.
  - destruct Q; reflexivity.
  - cbn [add_subscriber ssubs skids]. destruct Q as [|k2 Q]; [reflexivity|].
    cbn [subs_at skids kpath_eqb].
    rewrite find_upd_k. destruct (kseg_eqb_spec k k2) as [<-|]; [|reflexivity]. rewrite IH. cbn [andb].
    destruct (find_k k cs) as [c|]; [reflexivity|].
    destruct (kpath_eqb P Q); destruct Q; reflexivity.
Qed.

Theorem wfs_add P sb : forall n, wfs n -> wfs (add_subscriber P sb n).
Proof.
  induction P as [|k P IH]; intros [s cs] Hwf.
  - exact Hwf.
  - cbn [add_subscriber ssubs skids]. apply wfs_unfold in Hwf as [Hnd Hc]. apply wfs_unfold. split.
    + rewrite map_fst_upd_k. destruct (existsb (kseg_eqb k) (map fst cs)) eqn:E; [assumption|].
      apply NoDup_snoc; [assumption|]. intros Hin.
      assert (existsb (kseg_eqb k) (map fst cs) = true); [|congruence].
      apply existsb_exists. exists k. split; [assumption|apply kseg_eqb_refl].
    + clear Hnd. induction Hc as [|[k' c] cs Hk Hcs IHc]; cbn.
      * constructor; [|constructor]. cbn [snd]. apply IH. cbn. split; [constructor|exact I].
      * destruct (kseg_eqb k k'); constructor; cbn [snd] in *; try assumption. now apply IH.
Qed.

Lemma perm_upd_k {B} (g : snode -> list B) (x : B) (d : snode) k f cs :
  (forall c, Permutation (g (f c)) (x :: g c)) -> g d = [] ->
  Permutation (flat_map (fun kc => g (snd kc)) (upd_k d k f cs)) (x :: flat_map (fun kc => g (snd kc)) cs).
Proof.
  intros Hf Hd. induction cs as [|[k' c] cs IH]; cbn [upd_k flat_map snd].
  - rewrite app_nil_r. rewrite <- Hd. apply Hf.
  - destruct (kseg_eqb k k'); cbn [flat_map snd].
    + change (x :: g c ++ flat_map (fun kc => g (snd kc)) cs) with ((x :: g c) ++ flat_map (fun kc => g (snd kc)) cs).
      apply Permutation_app_tail. apply Hf.
    + rewrite (Permutation_app_head _ IH). apply Permutation_sym, Permutation_middle.
Qed.

Lemma all_subs_add P sb : forall n, Permutation (all_subs (add_subscriber P sb n)) (sb :: all_subs n).
Proof.
  induction P as [|k P IH]; intros [s cs].
  - cbn [add_subscriber ssubs skids]. rewrite !all_subs_unfold. rewrite <- app_assoc. cbn [app].
    apply Permutation_sym, Permutation_middle.
  - cbn [add_subscriber ssubs skids]. rewrite !all_subs_unfold.
    rewrite (Permutation_app_head _ (perm_upd_k all_subs sb empty_snode k (add_subscriber P sb) cs IH eq_refl)).
    apply Permutation_sym, Permutation_middle.
Qed.

Theorem subs_at_remove P c t : forall n Q,
  subs_at (remove_id P c t n) Q =
    if kpath_eqb P Q then filter (fun x => negb (same_id c t x)) (subs_at n Q) else subs_at n Q.
Proof.
  induction P as [|k P IH]; intros [s cs] Q.
  - destruct Q; reflexivity.
  - cbn [remove_id ssubs skids]. destruct Q as [|k2 Q]; [reflexivity|].
    cbn [subs_at skids kpath_eqb].
    rewrite find_mod_k. destruct (kseg_eqb_spec k k2) as [<-|]; [|reflexivity]. cbn [andb].
    destruct (find_k k cs) as [ch|]; cbn [option_map]; [apply IH|now destruct (kpath_eqb P Q)].
Qed.

Theorem wfs_remove P c t : forall n, wfs n -> wfs (remove_id P c t n).
Proof.
  induction P as [|k P IH]; intros [s cs] Hwf.
  - exact Hwf.
  - cbn [remove_id ssubs skids]. apply wfs_unfold in Hwf as [Hnd Hc]. apply wfs_unfold. split.
    + now rewrite map_fst_mod_k.
    + clear Hnd. induction Hc as [|[k' ch] cs Hk Hcs IHc]; cbn; [constructor|].
      destruct (kseg_eqb k k'); constructor; cbn [snd] in *; try assumption. now apply IH.
Qed.

Inductive sub_of {A} : list A -> list A -> Prop :=
| sub_nil : sub_of [] []
| sub_keep x a b : sub_of a b -> sub_of (x :: a) (x :: b)
| sub_drop x a b : sub_of a b -> sub_of a (x :: b).

Lemma sub_of_refl {A} (l : list A) : sub_of l l.
Proof. induction l; constructor; assumption. Qed.

Lemma sub_of_app {A} (a b c d : list A) : sub_of a b -> sub_of c d -> sub_of (a ++ c) (b ++ d).
Proof. induction 1; cbn; intros Hcd; [exact Hcd| |]; constructor; auto. Qed.

Lemma sub_of_filter {A} (f : A -> bool) l : sub_of (filter f l) l.
Proof. induction l as [|x l IH]; cbn; [constructor|]. destruct (f x); constructor; exact IH. Qed.

Lemma sub_of_In {A} (a b : list A) x : sub_of a b -> In x a -> In x b.
Proof. induction 1; cbn; intros Hin; [exact Hin| |]; intuition. Qed.

Lemma sub_of_NoDup_map {A B} (g : A -> B) a b : sub_of a b -> NoDup (map g b) -> NoDup (map g a).
Proof.
  induction 1 as [|x a b H IH|x a b H IH]; cbn [map]; intros Hnd; [constructor| |].
  - apply NoDup_cons_iff in Hnd as (Hx & Hnd). constructor; [|now apply IH].
    intros Hin. apply Hx. apply in_map_iff in Hin as (y & E & Hy). apply in_map_iff. exists y. split; [exact E|].
    exact (sub_of_In _ _ _ H Hy).
  - apply NoDup_cons_iff in Hnd as (_ & Hnd). now apply IH.
Qed.

Lemma all_subs_remove P c t : forall n, sub_of (all_subs (remove_id P c t n)) (all_subs n).
Proof.
  induction P as [|k P IH]; intros [s cs]; cbn [remove_id ssubs skids]; rewrite !all_subs_unfold.
  - apply sub_of_app; [apply sub_of_filter|apply sub_of_refl].
  - apply sub_of_app; [apply sub_of_refl|]. induction cs as [|[k' ch] cs IHc]; cbn [mod_k flat_map snd]; [constructor|].
    destruct (kseg_eqb k k'); cbn [flat_map snd]; (apply sub_of_app; [|try apply sub_of_refl; try exact IHc]).
    + apply IH.
    + apply sub_of_refl.
Qed.
