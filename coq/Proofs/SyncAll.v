(* C11 over whole histories of leader requests of every kind except import (known finding F10b): client writes,
   sessions starting and ending with their grave goods and last wills, registrations coming and going, and all the
   requests that do not touch the data.  After the follower has processed what the leader sent it holds the leader's
   user keys with the same entries and, at $SYS/clients/?/graveGoods and lastWill, the leader's registrations.
   Hypotheses: patterns are well-formed (F3) and begin with a literal segment (F4: a wildcard as first segment
   reaches $SYS on the leader and the follower alike, which is a finding of its own), and no request crashes on the
   leader (F17, the version overflow: the clause of [adm_req]; the per-write no-crash clauses of [adm] are not used). *)
From Coq Require Import List.
Import ListNotations.
From WB Require Import Base.ListFacts Base.Str Base.StrFacts Base.Json Base.JsonFacts Model.Key Model.Consts Model.Store Model.Match Model.Subs
  Model.Entry Model.Core Model.Codec Model.Persist Model.Sync Spec.MapSpec Proofs.Frame Proofs.StoreFacts Proofs.GoodNames Proofs.MatchFacts Proofs.CoreFacts
  Proofs.SessionEnd Proofs.StreamAll Proofs.Writes Proofs.SyncFacts Proofs.SysKeep.

Lemma map_flat_map {A B C} (f : B -> C) (g : A -> list B) l :
  map f (flat_map g l) = flat_map (fun x => map f (g x)) l.
Proof. induction l as [|x l IH]; [reflexivity|]. cbn [flat_map]. now rewrite map_app, IH. Qed.

Lemma flat_map_map {A B C} (f : A -> B) (g : B -> list C) l : flat_map g (map f l) = flat_map (fun x => g (f x)) l.
Proof. induction l as [|x l IH]; [reflexivity|]. cbn. now rewrite IH. Qed.

Lemma flat_map_nil {A B} (g : A -> list B) l : (forall x, In x l -> g x = []) -> flat_map g l = [].
Proof. induction l as [|x l IH]; intros H; [reflexivity|]. cbn. rewrite (H x) by now left. apply IH. intros y Hy. apply H. now right. Qed.

Lemma starts_with_app_refl p r : starts_with p (p ++ r) = true.
Proof. induction p as [|x p IH]; [reflexivity|]. cbn. now rewrite N.eqb_refl, IH. Qed.

Definition reg_path (p : list str) : Prop :=
  exists x leaf, p = [s_SYS; s_clients; x; leaf] /\ (leaf = s_graveGoods \/ leaf = s_lastWill).

Lemma reg_path_not_user p : reg_path p -> is_user p = false.
Proof. intros (x & leaf & -> & _). reflexivity. Qed.

Lemma nonprefixed_not_reg k q : starts_with s_SYS_prefix k = false -> reg_path q -> parse_segments k <> Ok q.
Proof.
  intros Hn (x & leaf & -> & _) Hp. apply parse_segments_good in Hp as (Hp & _).
  rewrite (proj2 (prefixed_iff k)) in Hn by eauto. discriminate.
Qed.

Lemma match_sys_clients leaf q :
  store_match (sys_clients_pat leaf) q = true <-> exists x, q = [s_SYS; s_clients; x; leaf].
Proof.
  unfold sys_clients_pat. split.
  - (* too short or too long a path leaves a conjunct [false] *)
    destruct q as [|a [|b [|c [|d [|e q]]]]]; cbn [store_match]; rewrite ?Bool.andb_false_r; try discriminate.
    intros H. apply andb_true_iff in H as (E1 & H). apply andb_true_iff in H as (E2 & H). apply andb_true_iff in H as (E3 & _).
    apply str_eqb_eq in E1, E2, E3. subst. now exists c.
  - intros (x & ->). cbn [store_match]. now rewrite !str_eqb_refl.
Qed.

Lemma In_sys_clients s leaf q e :
  Inv s ->
  (In (q, e) (collect (data s) [] (sys_clients_pat leaf)) <-> (exists x, q = [s_SYS; s_clients; x; leaf]) /\ abs s q = Some e).
Proof.
  intros (Hw & _). rewrite (collect_spec _ _ _ _ _ Hw). cbn [app]. split.
  - intros (k & -> & Hl & Hm). split; [now apply match_sys_clients|exact Hl].
  - intros (Hx & Hl). exists q. split; [reflexivity|]. split; [exact Hl|now apply match_sys_clients].
Qed.

Lemma In_registrations s p e :
  Inv s -> (In (p, e) (registrations s) <-> reg_path p /\ abs s p = Some e).
Proof.
  intros HI. unfold registrations. rewrite in_app_iff, !(In_sys_clients s _ p e HI). split.
  - intros [((x & ->) & Hl)|((x & ->) & Hl)]; (split; [|exact Hl]); exists x; eauto.
  - intros ((x & leaf & -> & [->| ->]) & Hl); [left|right]; split; eauto.
Qed.

Lemma regs_unique s q e e' : Inv s -> In (q, e) (registrations s) -> In (q, e') (registrations s) -> e = e'.
Proof. intros HI H H'. apply (In_registrations s q _ HI) in H as (_ & H), H' as (_ & H'). congruence. Qed.

Lemma reg_get_In q l e : reg_get q l = Some e -> In (q, e) l.
Proof.
  unfold reg_get. destruct (find _ l) as [[p e']|] eqn:Ef; [|discriminate]. intros [= <-].
  apply find_some in Ef as (Hin & Hp). cbn [fst] in Hp. now destruct (path_eqb_spec p q) as [<-|].
Qed.

Lemma reg_get_Some s p e :
  Inv s -> (reg_get p (registrations s) = Some e <-> reg_path p /\ abs s p = Some e).
Proof.
  intros HI. rewrite <- (In_registrations s p e HI). split; [apply reg_get_In|]. intros H.
  destruct (reg_get p (registrations s)) as [e'|] eqn:Eg.
  - f_equal. exact (regs_unique s p e' e HI (reg_get_In _ _ _ Eg) H).
  - unfold reg_get in Eg. destruct (find _ _) eqn:Ef; [discriminate|].
    apply (find_none _ _ Ef) in H. cbn [fst] in H. now rewrite path_eqb_refl in H.
Qed.

Lemma reg_get_reg s q : Inv s -> reg_path q -> reg_get q (registrations s) = abs s q.
Proof.
  intros HI Hr. destruct (abs s q) as [e|] eqn:E; [now apply reg_get_Some|].
  destruct (reg_get q (registrations s)) as [e|] eqn:Eg; [|reflexivity]. apply (reg_get_Some s q e HI) in Eg as (_ & Eg). congruence.
Qed.

Lemma reg_get_nonreg s q : Inv s -> ~ reg_path q -> reg_get q (registrations s) = None.
Proof.
  intros HI Hn. destruct (reg_get q (registrations s)) as [e|] eqn:Eg; [|reflexivity].
  now apply (reg_get_Some s q e HI) in Eg as (Hr & _).
Qed.

Definition val_at (m : mstate) (p : list str) : option json := option_map entry_val (m p).
Definition plain_regs (m : mstate) : Prop := forall p e, reg_path p -> m p = Some e -> exists v, e = Plain v.

Definition act := (list str * option json)%type.
Definition cmd_of (a : act) : wcmd :=
  match snd a with Some v => WSet (key_of (fst a)) v false | None => WDelete (key_of (fst a)) end.
Definition act_ok (a : act) : Prop :=
  reg_path (fst a) /\ Forall good_seg (fst a) /\
  match snd a with Some v => special_value_bad (key_of (fst a)) v = false | None => True end.

Lemma key_of_nonempty p : reg_path p -> key_of p <> [].
Proof. intros (x & leaf & -> & _). unfold key_of. cbn. discriminate. Qed.

Lemma point_write_internal p u m :
  key_of p <> [] -> Forall good_seg p ->
  point_write 0 (key_of p) u m = match u (m p) with Some x => m_put m p x | None => m end.
Proof.
  intros Hk Hg. unfold point_write, guarded, point. rewrite (guard_internal _ Hk). unfold key_of in *.
  rewrite (parse_join_good p); [reflexivity| |exact Hg]. intros ->. now apply Hk.
Qed.

Lemma fapply_act F a :
  Inv F -> plain_regs (abs F) -> act_ok a ->
  Inv (fapply F (cmd_of a)) /\ meq (abs (fapply F (cmd_of a))) (m_put (abs F) (fst a) (option_map Plain (snd a))).
Proof.
  intros HI Hpl (Hr & Hg & Hx). unfold fapply.
  destruct (step_data_write F (op_of_wcmd (cmd_of a)) HI) as (HI' & Hm); [now destruct a as [p [v|]]|].
  split; [exact HI'|]. intros q. rewrite Hm. destruct a as [p x]. cbn [fst snd] in *.
  pose proof (fun u => point_write_internal p u (abs F) (key_of_nonempty p Hr) Hg) as Hw.
  destruct x as [v|]; cbn [cmd_of fst snd op_of_wcmd data_write option_map]; rewrite Hw; [|reflexivity].
  unfold ins_upd. cbn [entry_val]. rewrite Hx.
  (* a registration is a plain value: set is not refused for a CAS entry *)
  destruct (abs F p) as [e|] eqn:E; [|reflexivity]. now destruct (Hpl p e Hr E) as (c & ->).
Qed.

Definition last_act (q : list str) : list act -> option (option json) :=
  last_of (fun a => if path_eqb (fst a) q then Some (snd a) else None).

Lemma last_act_cons q a acts :
  last_act q (a :: acts) =
  match last_act q acts with Some x => Some x | None => if path_eqb (fst a) q then Some (snd a) else None end.
Proof. reflexivity. Qed.

Lemma drain_point acts : forall F,
  Inv F -> plain_regs (abs F) -> Forall act_ok acts ->
  let F' := fdrain F (map cmd_of acts) in
  Inv F' /\ plain_regs (abs F') /\
  forall q, abs F' q = match last_act q acts with Some x => option_map Plain x | None => abs F q end.
Proof.
  induction acts as [|a acts IH]; intros F HI Hpl Hok; [now split|].
  apply Forall_cons_iff in Hok as (Ha & Hok). cbn [map]. rewrite fdrain_cons.
  destruct (fapply_act F a HI Hpl Ha) as (HI1 & Hm1).
  assert (Hpl1 : plain_regs (abs (fapply F (cmd_of a)))).
  { intros q e Hq E. rewrite Hm1 in E. unfold m_put in E. destruct (path_eqb (fst a) q); [|exact (Hpl q e Hq E)].
    destruct (snd a); [injection E as <-; eauto|discriminate]. }
  destruct (IH _ HI1 Hpl1 Hok) as (HI' & Hpl' & Hq). split; [exact HI'|]. split; [exact Hpl'|].
  intros q. rewrite Hq, last_act_cons. destruct (last_act q acts); [reflexivity|].
  rewrite Hm1. unfold m_put. now destruct (path_eqb (fst a) q).
Qed.

(* [reg_changes] as actions on paths ([reg_changes_acts]): [gS L] is its first [flat_map], over the entries of the new
   state, [gD L'] its second, over those of the old *)
Definition fm (g : list str * entry -> option (option json)) (l : list (list str * entry)) : list act :=
  flat_map (fun m => match g m with Some x => [(fst m, x)] | None => [] end) l.

Definition gS (L : core) (m : list str * entry) : option (option json) :=
  match reg_get (fst m) (registrations L) with
  | Some e => if json_eqb (entry_val e) (entry_val (snd m)) then None else Some (Some (entry_val (snd m)))
  | None => Some (Some (entry_val (snd m)))
  end.
Definition gD (L' : core) (m : list str * entry) : option (option json) :=
  match reg_get (fst m) (registrations L') with Some _ => None | None => Some None end.

Definition racts (L L' : core) : list act := fm (gS L) (registrations L') ++ fm (gD L') (registrations L).

Lemma reg_changes_acts L L' : reg_changes L L' = map cmd_of (racts L L').
Proof.
  unfold reg_changes, racts, fm. rewrite map_app, !map_flat_map. f_equal; apply flat_map_ext; intros m.
  - unfold gS. destruct (reg_get (fst m) (registrations L)) as [e|]; [destruct (json_eqb _ _)|]; reflexivity.
  - unfold gD. destruct (reg_get (fst m) (registrations L')); reflexivity.
Qed.

Lemma last_act_fm q g l :
  (forall e e', In (q, e) l -> In (q, e') l -> e = e') ->
  last_act q (fm g l) = match reg_get q l with Some e => g (q, e) | None => None end.
Proof.
  unfold last_act, fm. induction l as [|[p e] l IH]; intros H; [reflexivity|].
  cbn [flat_map]. rewrite last_of_app, IH by (intros e1 e2 H1 H2; apply H; now right).
  replace (last_of _ (match g (p, e) with Some x => [(fst (p, e), x)] | None => [] end))
    with (if path_eqb p q then g (p, e) else None)
    by (destruct (g (p, e)); cbn [last_of fst snd]; now destruct (path_eqb p q)).
  replace (reg_get q ((p, e) :: l)) with (if path_eqb p q then Some e else reg_get q l)
    by (unfold reg_get; cbn [find fst]; now destruct (path_eqb p q)).
  destruct (path_eqb_spec p q) as [->|Hne]; destruct (reg_get q l) as [e'|] eqn:Eg; try reflexivity.
  - (* a later entry for q is the same entry *)
    rewrite (H e' e (or_intror (reg_get_In _ _ _ Eg)) (or_introl eq_refl)). now destruct (g (q, e)).
  - now destruct (g (q, e')).
Qed.

Lemma last_act_racts L L' q :
  Inv L -> Inv L' ->
  last_act q (racts L L') =
  match reg_get q (registrations L'), reg_get q (registrations L) with
  | Some e', Some e => if json_eqb (entry_val e) (entry_val e') then None else Some (Some (entry_val e'))
  | Some e', None => Some (Some (entry_val e'))
  | None, Some _ => Some None
  | None, None => None
  end.
Proof.
  intros HL HL'. unfold racts, last_act. rewrite last_of_app. fold (last_act q).
  rewrite !last_act_fm by (intros e1 e2; now apply regs_unique). unfold gS, gD. cbn [fst snd].
  now destruct (reg_get q (registrations L')), (reg_get q (registrations L)).
Qed.

(* every registration the leader stores passed the value check of set (so the follower accepts it too) *)
Definition RegOK (s : core) : Prop :=
  forall p e, reg_path p -> abs s p = Some e -> special_value_bad (key_of p) (entry_val e) = false.

Lemma fm_ok s g :
  Inv s ->
  (forall p e v, reg_path p -> abs s p = Some e -> g (p, e) = Some (Some v) -> special_value_bad (key_of p) v = false) ->
  Forall act_ok (fm g (registrations s)).
Proof.
  intros HI H. apply Forall_forall. intros a Hin. apply in_flat_map in Hin as ([p e] & Hm & Hin).
  apply (In_registrations s p e HI) in Hm as (Hr & El).
  destruct (g (p, e)) as [x|] eqn:Eg; [|destruct Hin]. destruct Hin as [<-|[]].
  split; [exact Hr|]. split; [exact (lookup_good _ _ _ (proj1 (proj2 (proj2 HI))) El)|].
  cbn [fst snd]. destruct x as [v|]; [exact (H p e v Hr El Eg)|exact I].
Qed.

Lemma racts_ok L L' : Inv L -> Inv L' -> RegOK L' -> Forall act_ok (racts L L').
Proof.
  intros HL HL' HR. apply Forall_app. split; apply fm_ok; try assumption; intros p e v Hr El Eg.
  - unfold gS in Eg. cbn [fst snd] in Eg.
    destruct (reg_get p (registrations L)); [destruct (json_eqb _ _); [discriminate|]|]; injection Eg as <-; exact (HR p e Hr El).
  - unfold gD in Eg. destruct (reg_get _ _); discriminate.
Qed.

Theorem reg_sync L L' F :
  Inv L -> Inv L' -> Inv F -> plain_regs (abs F) -> RegOK L' ->
  (forall q, reg_path q -> val_at (abs L) q = val_at (abs L') q -> val_at (abs F) q = val_at (abs L') q) ->
  let F' := fdrain F (reg_changes L L') in
  Inv F' /\ plain_regs (abs F') /\
  (forall q, ~ reg_path q -> abs F' q = abs F q) /\
  (forall q, reg_path q -> val_at (abs F') q = val_at (abs L') q).
Proof.
  intros HL HL' HF Hpl HR H. cbv zeta. rewrite reg_changes_acts.
  destruct (drain_point (racts L L') F HF Hpl (racts_ok L L' HL HL' HR)) as (HI' & Hpl' & Hq).
  split; [exact HI'|]. split; [exact Hpl'|]. split; intros q Hr.
  - now rewrite Hq, (last_act_racts L L' q HL HL'), !reg_get_nonreg.
  - specialize (H q Hr). unfold val_at in *. rewrite Hq, (last_act_racts L L' q HL HL'), !reg_get_reg by assumption.
    destruct (abs L' q) as [e'|], (abs L q) as [e|]; cbn [option_map] in *; try reflexivity; [|now apply H].
    (* the entries agree in value: nothing was sent, and the follower had the old value *)
    destruct (json_eqb (entry_val e) (entry_val e')) eqn:Ej; [|reflexivity]. apply json_eqb_eq in Ej. apply H. now rewrite Ej.
Qed.

(* what the leader forwards for one elementary request before applying it; the force flag of an internal write
   (a last will) travels with it *)
Definition mirror' (o : op) : list wcmd :=
  match o with
  | OSet _ k v f => if starts_with s_SYS_prefix k then [] else [WSet k v f]
  | OCSet _ k v n f => if starts_with s_SYS_prefix k then [] else [WCSet k v n f]
  | ODelete _ k => if starts_with s_SYS_prefix k then [] else [WDelete k]
  | OPDelete _ p => if starts_with s_SYS_prefix p then [] else [WPDelete p]
  | _ => []
  end.

Definition lit_first (pat : str) : bool :=
  match kseg_parse pat with Reg _ :: _ => true | _ => false end.

(* excluded: ill-formed patterns (F3), a wildcard as first segment (F4), import (F10b).  As in [SyncFacts.admissible] the
   no-crash clauses for set and cset are not used ([adm_plain] takes the pattern clause only); the version overflow of
   F17 is excluded where the proofs need it, by the no-crash clause of [adm_req]. *)
Definition adm (L F : core) (o : op) : Prop :=
  match o with
  | OSet c k v f => o_res (snd (do_insert L c k (Plain v) f)) <> RCrash /\ o_res (snd (do_insert F 0 k (Plain v) f)) <> RCrash
  | OCSet c k v n f => o_res (snd (do_insert L c k (Cas v n) f)) <> RCrash /\ o_res (snd (do_insert F 0 k (Cas v n) f)) <> RCrash
  | OPDelete _ pat => wf_pat (kseg_parse pat) = true /\ lit_first pat = true
  | OImport _ => False
  | _ => True
  end.

Lemma fdrain_mirror' F o : fdrain F (mirror' o) = if kept_back o then F else fst (step F (internal o)).
Proof. destruct o; try reflexivity; cbn [mirror' kept_back]; now destruct (starts_with s_SYS_prefix _). Qed.

Lemma adm_plain L F o : elem o -> adm L F o -> plain_op o.
Proof.
  destruct o; cbn [elem adm plain_op]; try (intros _ _; exact I); try contradiction.
  intros _ (H & _). exact H.
Qed.

Lemma lit_first_literal pat : lit_first pat = true -> literal_first pat.
Proof. unfold lit_first, literal_first. destruct (kseg_parse pat) as [|[]]; (discriminate || exact (fun _ => I)). Qed.

Lemma lit_first_no_reg pat q :
  lit_first pat = true -> starts_with s_SYS_prefix pat = false -> reg_path q ->
  store_match (kseg_parse pat) q = false.
Proof.
  intros Hl Hn (x & leaf & -> & _). destruct (literal_first_split pat (lit_first_literal pat Hl)) as (y & rest & Es & ->).
  destruct (store_match (Reg y :: _) _) eqn:Em; [|reflexivity]. destruct (store_match_lits [y] _ _ Em) as (q0 & [= <- _]).
  (* the pattern is "$SYS" alone, too short, or has a second segment and begins with "$SYS/" *)
  destruct rest as [|b r]; [cbn in Em; discriminate|].
  rewrite (proj2 (prefixed_iff pat)) in Hn by eauto. discriminate.
Qed.

Lemma point_write_RegOK c k u s p e :
  (forall cur e', u cur = Some (Some e') -> special_value_bad k (entry_val e') = false) ->
  RegOK s -> reg_path p -> point_write c k u (abs s) p = Some e -> special_value_bad (key_of p) (entry_val e) = false.
Proof.
  intros Hu HR Hp. destruct (point_write_at c k u (abs s) p) as [->|(x & _ & Hp' & Ex & ->)]; [exact (HR p e Hp)|]. intros ->.
  rewrite <- (key_of_path k p Hp'). exact (Hu _ _ Ex).
Qed.

Lemma step_RegOK s o : Inv s -> plain_op o -> RegOK s -> RegOK (fst (step s o)).
Proof.
  intros HI Ho HR p e Hp E. rewrite (proj2 (step_data_write s o HI Ho)) in E. revert E.
  assert (Hins : forall k e0 f cur e', ins_upd k e0 f cur = Some (Some e') -> special_value_bad k (entry_val e') = false).
  { intros k e0 f cur e' Ex. apply ins_upd_Some in Ex as (e'' & [= <-] & -> & Hs). exact Hs. }
  destruct o; try contradiction; cbn [data_write]; try exact (HR p e Hp).
  - apply point_write_RegOK; [apply Hins|exact HR|exact Hp].
  - apply point_write_RegOK; [apply Hins|exact HR|exact Hp].
  - apply point_write_RegOK; [discriminate|exact HR|exact Hp].
  - destruct (pdel_write_at c p0 (abs s) p) as [->|(_ & _ & ->)]; [exact (HR p e Hp)|discriminate].
Qed.

Lemma mirror_keeps_regs L F o q :
  Inv F -> elem o -> adm L F o -> reg_path q -> abs (fdrain F (mirror' o)) q = abs F q.
Proof.
  intros HF He Ha Hq. rewrite fdrain_mirror'. destruct (kept_back o) eqn:Ek; [reflexivity|].
  rewrite (proj2 (step_data_write F (internal o) HF (plain_internal o (adm_plain L F o He Ha)))).
  destruct o; try discriminate Ek; cbn [kept_back internal data_write adm] in *.
  - now apply point_write_other, nonprefixed_not_reg.
  - now apply point_write_other, nonprefixed_not_reg.
  - now apply point_write_other, nonprefixed_not_reg.
  - destruct (pdel_write_at 0 p (abs F) q) as [E|(_ & Em & _)]; [exact E|].
    now rewrite (lit_first_no_reg p q (proj2 Ha) Ek Hq) in Em.
Qed.

(* Between two rounds of registration commands the follower keeps up with the leader's user keys while its registrations
   are still those of [L0], the leader's state at the last round. *)
Record Rel_since (L0 L F : core) : Prop := {
  rs_L : Inv L; rs_F : Inv F;
  rs_user : user_eq (abs L) (abs F);
  rs_regs : forall q, reg_path q -> val_at (abs F) q = val_at (abs L0) q;
  rs_plain : plain_regs (abs F);
  rs_ok : RegOK L }.

Theorem op_sim L0 L F o :
  Rel_since L0 L F -> elem o -> adm L F o -> Rel_since L0 (fst (step L o)) (fdrain F (mirror' o)).
Proof.
  intros [HL HF Hu Hregs Hpl HR] He Ha. pose proof (adm_plain L F o He Ha) as Ho.
  destruct (step_sim L F o HL HF Hu Ho) as (HL' & HF' & Hu'). rewrite <- fdrain_mirror' in HF', Hu'.
  pose proof (fun q => mirror_keeps_regs L F o q HF He Ha) as Hq.
  split; try assumption.
  - intros q Hr. unfold val_at. rewrite (Hq q Hr). exact (Hregs q Hr).
  - intros p e Hr E. rewrite (Hq p Hr) in E. exact (Hpl p e Hr E).
  - now apply step_RegOK.
Qed.

Fixpoint adm_run (L F : core) (ops : list op) : Prop :=
  match ops with
  | [] => True
  | o :: r => adm L F o /\ adm_run (fst (step L o)) (fdrain F (mirror' o)) r
  end.

Lemma run_sim L0 ops : forall L F,
  Rel_since L0 L F -> Forall elem ops -> adm_run L F ops -> Rel_since L0 (final L ops) (fdrain F (flat_map mirror' ops)).
Proof.
  induction ops as [|o ops IH]; intros L F H He Ha; [exact H|].
  apply Forall_cons_iff in He as (He & Hes). destruct Ha as (Ha & Has). cbn [flat_map]. rewrite fdrain_app.
  apply (IH (fst (step L o))); [now apply op_sim|exact Hes|exact Has].
Qed.

Definition early_of (L : core) (o : op) : list wcmd := flat_map mirror' (snd (expand L o)).

(* the requests of the wire protocol carry force = false (the name hides [SysKeep.client_req] from here on) *)
Definition client_req (o : op) : Prop :=
  match o with
  | OSet _ _ _ f | OCSet _ _ _ _ f => f = false
  | OImport _ => False
  | _ => True
  end.

Lemma gg_lw_same L c :
  session_end_mirror L c =
  flat_map (fun g => if starts_with s_SYS_prefix g then [] else [WPDelete g]) (gg_of L c) ++
  flat_map (fun kv => if starts_with s_SYS_prefix (fst kv) then [] else [WSet (fst kv) (snd kv) true]) (lw_of L c).
Proof.
  unfold session_end_mirror, gg_of, lw_of. f_equal.
  - destruct (do_get L _); reflexivity.
  - destruct (do_get L (topic [s_SYS; s_clients; client_str c; s_lastWill])); reflexivity.
Qed.

Lemma lstep_ws L o :
  client_req o -> o_res (snd (step L o)) <> RCrash ->
  snd (lstep L o) = early_of L o ++ reg_changes L (fst (step L o)).
Proof.
  intros Hcl Hnc. unfold lstep, early_of. cbn [snd].
  destruct o; try contradiction; cbn [expand snd flat_map mirror mirror' client_req] in *; subst; rewrite ?app_nil_r; try reflexivity.
  - destruct (N.eqb c 0 || existsb (N.eqb c) (clients L))%bool; cbn [snd flat_map]; [reflexivity|].
    unfold conn_ops. cbn [flat_map mirror' app]. reflexivity.
  - destruct (N.eqb c 0) eqn:E0; cbn [snd flat_map].
    + exfalso. apply Hnc. cbn [step]. unfold do_disconnected. now rewrite E0.
    + f_equal. rewrite gg_lw_same. unfold end_ops. rewrite !flat_map_app, !flat_map_map. cbn [flat_map mirror' app].
      rewrite (flat_map_nil _ (ids_of c (subscriptions L))) by reflexivity.
      rewrite (flat_map_nil _ (ids_of c (ls_subscriptions L))) by reflexivity.
      reflexivity.
Qed.

(* Registrations are compared by value only ([val_at]): the follower is sent plain set commands and stores plain entries
   (r_plain), whatever kind of entry the leader holds at a registration key. *)
Record Rel (L F : core) : Prop := {
  r_L : Inv L; r_F : Inv F;
  r_user : user_eq (abs L) (abs F);
  r_regs : forall q, reg_path q -> val_at (abs F) q = val_at (abs L) q;
  r_plain : plain_regs (abs F);
  r_ok : RegOK L }.

(* a request of the wire protocol that does not crash on the leader (this clause is what keeps F17 out), its elementary
   requests admissible one after the other *)
Definition adm_req (L F : core) (o : op) : Prop :=
  client_req o /\ o_res (snd (step L o)) <> RCrash /\ adm_run (fst (expand L o)) F (snd (expand L o)).

Lemma regs_catch_up L0 L F : Inv L0 -> Rel_since L0 L F -> Rel L (fdrain F (reg_changes L0 L)).
Proof.
  intros H0 [HL HF Hu Hregs Hpl HR].
  destruct (reg_sync L0 L F H0 HL HF Hpl HR) as (HF' & Hpl' & Hnr & Hrg).
  { intros q Hq E. now rewrite (Hregs q Hq). }
  split; try assumption.
  intros q Hq. rewrite Hnr; [now apply Hu|]. intros Hr. now rewrite (reg_path_not_user q Hr) in Hq.
Qed.

Theorem request_sim L F o :
  Rel L F -> adm_req L F o -> Rel (fst (step L o)) (fdrain F (snd (lstep L o))).
Proof.
  intros [HL HF Hu Hregs Hpl HR] (Hcl & Hnc & Ha). rewrite (lstep_ws L o Hcl Hnc), fdrain_app.
  destruct (expand_runs L o (proj2 (crash_res _) Hnc)) as (-> & _).
  destruct (expand_shape L o) as (Ed & _ & _ & Hel & _). pose proof (abs_ext L _ Ed) as Ea.
  apply (regs_catch_up L); [exact HL|]. apply run_sim; [|exact Hel|exact Ha].
  split; try assumption; [exact (Inv_ext _ _ Ed HL)|now rewrite Ea|unfold RegOK; now rewrite Ea].
Qed.

Fixpoint cluster_run (L F : core) (os : list op) : core * core :=
  match os with
  | [] => (L, F)
  | o :: r => cluster_run (fst (step L o)) (fdrain F (snd (lstep L o))) r
  end.

Fixpoint adm_hist (L F : core) (os : list op) : Prop :=
  match os with
  | [] => True
  | o :: r => adm_req L F o /\ adm_hist (fst (step L o)) (fdrain F (snd (lstep L o))) r
  end.

Theorem sessions_converge os : forall L F,
  Rel L F -> adm_hist L F os -> Rel (fst (cluster_run L F os)) (snd (cluster_run L F os)).
Proof.
  induction os as [|o os IH]; intros L F HR Ha; [exact HR|]. destruct Ha as (Ha & Has).
  cbn [cluster_run]. apply IH; [now apply request_sim|exact Has].
Qed.

Theorem join_Rel L :
  Inv L -> RegOK L -> Rel L (fdrain (fst (fjoin L)) (snd (fjoin L))).
Proof.
  intros HL HR. destruct (join_agrees L HL) as (HF0 & Hu0). set (F0 := fst (fjoin L)) in *.
  assert (Hnone : forall q, reg_path q -> abs F0 q = None).
  { intros q Hq. unfold F0. now rewrite (fjoin_abs L q HL), (reg_path_not_user q Hq). }
  assert (Hpl0 : plain_regs (abs F0)) by (intros p e Hp E; rewrite (Hnone p Hp) in E; discriminate).
  (* what follows the export is the change of the registrations from none, which is what the export holds, to the leader's *)
  assert (Hws : snd (fjoin L) = reg_changes F0 L).
  { assert (E : registrations F0 = []).
    { destruct (registrations F0) as [|[p e] l] eqn:E; [reflexivity|].
      assert (Hin : In (p, e) (registrations F0)) by (rewrite E; now left).
      apply (In_registrations F0 p e HF0) in Hin as (Hr & Hl). rewrite (Hnone p Hr) in Hl. discriminate. }
    unfold reg_changes. rewrite E, app_nil_r. unfold fjoin. cbn [snd reg_get find].
    induction (registrations L) as [|m l IH]; [reflexivity|]. cbn [map flat_map app]. now rewrite IH. }
  rewrite Hws. apply regs_catch_up; [exact HF0|]. now split.
Qed.

Lemma RegOK_init : RegOK init.
Proof. intros p e _ E. unfold abs in E. change (data init) with (@empty_node entry) in E. now rewrite lookup_empty in E. Qed.

(* the hypotheses of [follower_converges_sessions] on the state joined hold of a leader after any admissible history *)
Theorem leader_reaches os : forall L F,
  Rel L F -> adm_hist L F os -> Inv (fst (cluster_run L F os)) /\ RegOK (fst (cluster_run L F os)).
Proof.
  intros L F HR Ha. destruct (sessions_converge os L F HR Ha) as [H1 _ _ _ _ H6]. now split.
Qed.

(* C11: a join in state L, then any admissible history of requests of any kind *)
Theorem follower_converges_sessions L os :
  Inv L -> RegOK L ->
  let F := fdrain (fst (fjoin L)) (snd (fjoin L)) in
  adm_hist L F os ->
  let L' := fst (cluster_run L F os) in let F' := snd (cluster_run L F os) in
  user_eq (abs L') (abs F') /\ (forall q, reg_path q -> val_at (abs F') q = val_at (abs L') q).
Proof.
  intros HL HR F Ha. cbv zeta. destruct (sessions_converge os L F (join_Rel L HL HR) Ha) as [_ _ Hu Hr _ _].
  split; assumption.
Qed.

(* [all_grave_goods] and [all_last_wills] are instances of this, by conversion *)
Definition payload {X} (dec : json -> option (list X)) (leaf : str) (s : core) : list X :=
  flat_map (fun m => match dec (entry_val (snd m)) with Some l => l | None => [] end)
           (collect (data s) [] (sys_clients_pat leaf)).

Lemma In_payload {X} (dec : json -> option (list X)) leaf s g :
  Inv s -> (In g (payload dec leaf s) <->
            exists x v l, val_at (abs s) [s_SYS; s_clients; x; leaf] = Some v /\ dec v = Some l /\ In g l).
Proof.
  intros HI. unfold payload, val_at. rewrite in_flat_map. split.
  - intros ([q e] & Hin & Hg). cbn [snd] in Hg. apply (In_sys_clients s leaf q e HI) in Hin as ((x & ->) & Hl).
    destruct (dec (entry_val e)) as [l|] eqn:Ed; [|destruct Hg]. exists x, (entry_val e), l. now rewrite Hl.
  - intros (x & v & l & Hl & Hd & Hg). destruct (abs s _) as [e|] eqn:El; [injection Hl as <-|discriminate].
    exists ([s_SYS; s_clients; x; leaf], e). cbn [snd]. rewrite Hd.
    split; [apply (In_sys_clients s leaf _ e HI); eauto|exact Hg].
Qed.

Lemma payload_follows {X} (dec : json -> option (list X)) leaf L F g :
  Rel L F -> leaf = s_graveGoods \/ leaf = s_lastWill -> (In g (payload dec leaf F) <-> In g (payload dec leaf L)).
Proof.
  intros [HL HF _ Hregs _ _] Hleaf. rewrite (In_payload dec leaf F g HF), (In_payload dec leaf L g HL).
  assert (Hr : forall x, val_at (abs F) [s_SYS; s_clients; x; leaf] = val_at (abs L) [s_SYS; s_clients; x; leaf]).
  { intros x. apply Hregs. now exists x, leaf. }
  split; intros (x & v & l & Hv & H); exists x, v, l; [now rewrite <- Hr|now rewrite Hr].
Qed.

(* a follower in the relation knows exactly the grave goods and last wills registered on the leader -- those made
   before it joined included (join_Rel) -- so these are what its shutdown and its restart as leader apply (C12_promote) *)
Theorem follower_knows_registrations L F :
  Rel L F ->
  (forall g, In g (all_grave_goods F) <-> In g (all_grave_goods L)) /\
  (forall kv, In kv (all_last_wills F) <-> In kv (all_last_wills L)).
Proof.
  intros HR. split; intros g.
  - apply (payload_follows dec_grave_goods s_graveGoods L F g HR). now left.
  - apply (payload_follows dec_last_will s_lastWill L F g HR). now right.
Qed.
