(* C11 for the writes of clients.  The leader serves a request and forwards it, whatever its outcome, unless the raw key
   begins with "$SYS/"; the follower serves what it is sent as the internal client.  Afterwards the two agree on every
   user key.  Writes.v reads each write as a function on maps behind the guard; the guard and the filter look at the same
   first segment of the raw key, which is the whole argument (guarded_sim).  Then: a follower refuses every write offered
   to it directly; the follower's half of known finding F10b (cas_import_refuted); the join; promotion (C12). *)
From Coq Require Import List.
Import ListNotations.
From WB Require Import Base.ListFacts Base.Str Base.StrFacts Base.Json Model.Key Model.Consts Model.Store Model.Match Model.Entry Model.Core
  Model.Codec Model.Persist Model.Sync Spec.MapSpec Proofs.StoreFacts Proofs.TreeInv Proofs.GoodNames Proofs.MatchFacts Proofs.CoreFacts Proofs.C01Proof Proofs.Writes Proofs.SysGuard
  Proofs.StreamAll Proofs.CodecFacts Proofs.PersistFacts.

Lemma is_user_first p0 rest : is_user (p0 :: rest) = negb (str_eqb p0 s_SYS).
Proof. reflexivity. Qed.

Lemma guard_internal k : k <> [] -> check_read_only k 0 = None.
Proof. intros Hk. unfold check_read_only. destruct k; [congruence|]. reflexivity. Qed.

Lemma user_key_passes k c :
  k <> [] -> is_user (split slash k) = true -> check_read_only k c = None /\ starts_with s_SYS_prefix k = false.
Proof.
  intros Hk Hu. destruct (split slash k) as [|p0 rest] eqn:Es; [discriminate|].
  rewrite is_user_first in Hu. apply Bool.negb_true_iff in Hu. split.
  - destruct (N.eq_dec c 0) as [->|Hc]; [now apply guard_internal|].
    pose proof (guard_literal k c Hc Hk) as G. now rewrite Es, Hu in G.
  - destruct (starts_with s_SYS_prefix k) eqn:Epre; [|reflexivity].
    apply prefixed_iff in Epre as (y & r & Es'). rewrite Es in Es'. injection Es' as -> _. now rewrite str_eqb_refl in Hu.
Qed.

Lemma nonuser_key_sys k : is_user (split slash k) = false -> exists rest, split slash k = s_SYS :: rest.
Proof.
  destruct (split slash k) as [|p0 rest] eqn:Es; [now elim (split_nonempty slash k)|]. rewrite is_user_first.
  intros H. apply Bool.negb_false_iff, str_eqb_eq in H. subst p0. now exists rest.
Qed.

Definition user_eq (a b : mstate) : Prop := forall q, is_user q = true -> a q = b q.

Lemma user_eq_refl a : user_eq a a.
Proof. intros q _. reflexivity. Qed.

Lemma user_eq_sym a b : user_eq a b -> user_eq b a.
Proof. intros H q Hq. symmetry. now apply H. Qed.

Lemma user_eq_trans a b c : user_eq a b -> user_eq b c -> user_eq a c.
Proof. intros H1 H2 q Hq. now rewrite H1, H2. Qed.

Lemma user_eq_meq a a' b b' : meq a' a -> meq b' b -> user_eq a b -> user_eq a' b'.
Proof. intros Ha Hb H q Hq. now rewrite Ha, Hb, H. Qed.

Lemma user_eq_put_nonuser a p x : is_user p = false -> user_eq (m_put a p x) a.
Proof. intros Hp q Hq. unfold m_put. destruct (path_eqb_spec p q) as [->|_]; [congruence|reflexivity]. Qed.

Lemma user_eq_put a b p x : user_eq a b -> user_eq (m_put a p x) (m_put b p x).
Proof. intros H q Hq. unfold m_put. destruct (path_eqb p q); [reflexivity|now apply H]. Qed.

Lemma user_eq_pdel_sys a p : user_eq (m_pdel a (Reg s_SYS :: p)) a.
Proof.
  intros q Hq. unfold m_pdel. destruct (store_match (Reg s_SYS :: p) q) eqn:E; [|reflexivity].
  apply (store_match_lits [s_SYS]) in E as [q' ->]. discriminate Hq.
Qed.

(* The guard and the $SYS filter of the mirror both look at the first segment of the raw key.  Where that is $SYS the
   write reaches no user key, whoever asks and whether or not it is forwarded; where it is not, every client passes
   the guard, the filter forwards, and one and the same write meets two maps that agree on the user keys. *)
Lemma guarded_sim c k G a b :
  (is_user (split slash k) = false -> forall m, user_eq (G m) m) ->
  (is_user (split slash k) = true -> user_eq (G a) (G b)) ->
  user_eq a b ->
  user_eq (guarded c k G a) (if starts_with s_SYS_prefix k then b else guarded 0 k G b).
Proof.
  intros Hsys Husr Hu. destruct k as [|x k']; [exact Hu|]. set (k := x :: k') in *.   (* the empty key is refused for everyone *)
  assert (Hk : k <> []) by discriminate.
  destruct (is_user (split slash k)) eqn:E.
  - unfold guarded. destruct (user_key_passes k c Hk E) as (-> & ->). destruct (user_key_passes k 0 Hk E) as (-> & _).
    now apply Husr.
  - assert (Hg : forall c' m, user_eq (guarded c' k G m) m).
    { intros c' m. unfold guarded. destruct (check_read_only k c'); [apply user_eq_refl|now apply Hsys]. }
    apply (user_eq_trans _ a); [apply Hg|]. apply (user_eq_trans _ b); [exact Hu|].
    destruct (starts_with s_SYS_prefix k); [apply user_eq_refl|apply user_eq_sym, Hg].
Qed.

Lemma point_nonuser k u m : is_user (split slash k) = false -> user_eq (point k u m) m.
Proof.
  intros E. unfold point. destruct (parse_segments k) as [p|] eqn:Ep; [|apply user_eq_refl].
  apply parse_segments_good in Ep as (-> & _). destruct (u _); [now apply user_eq_put_nonuser|apply user_eq_refl].
Qed.

(* the same decision on the same entry *)
Lemma point_user k u a b : is_user (split slash k) = true -> user_eq a b -> user_eq (point k u a) (point k u b).
Proof.
  intros E Hu. unfold point. destruct (parse_segments k) as [p|] eqn:Ep; [|exact Hu].
  apply parse_segments_good in Ep as (-> & _). rewrite (Hu _ E). destruct (u _); [now apply user_eq_put|exact Hu].
Qed.

Lemma point_write_sim c k u a b :
  user_eq a b -> user_eq (point_write c k u a) (if starts_with s_SYS_prefix k then b else point_write 0 k u b).
Proof.
  intros Hu. apply guarded_sim; [intros E m; now apply point_nonuser|intros E; now apply point_user|exact Hu].
Qed.

Lemma pdel_write_sim c pat a b :
  user_eq a b -> user_eq (pdel_write c pat a) (if starts_with s_SYS_prefix pat then b else pdel_write 0 pat b).
Proof.
  intros Hu. apply guarded_sim; [| |exact Hu]; intros E.
  - intros m. destruct (nonuser_key_sys pat E) as [rest Hs]. unfold kseg_parse. rewrite Hs. apply user_eq_pdel_sys.
  - intros q Hq. unfold m_pdel. destruct (store_match (kseg_parse pat) q); [reflexivity|now apply Hu].
Qed.

Definition internal (o : op) : op :=
  match o with
  | OSet _ k v f => OSet 0 k v f
  | OCSet _ k v n f => OCSet 0 k v n f
  | ODelete _ k => ODelete 0 k
  | OPDelete _ p => OPDelete 0 p
  | _ => o
  end.
Definition kept_back (o : op) : bool :=
  match o with
  | OSet _ k _ _ | OCSet _ k _ _ _ | ODelete _ k | OPDelete _ k => starts_with s_SYS_prefix k
  | _ => true
  end.

Lemma plain_internal o : plain_op o -> plain_op (internal o).
Proof. now destruct o. Qed.

Lemma data_write_sim o a b :
  plain_op o -> user_eq a b -> user_eq (data_write o a) (if kept_back o then b else data_write (internal o) b).
Proof.
  intros Ho Hu. destruct o; try contradiction; try exact Hu; cbn [data_write kept_back internal].
  - now apply point_write_sim.
  - now apply point_write_sim.
  - now apply point_write_sim.
  - now apply pdel_write_sim.
Qed.

Theorem step_sim L F o :
  Inv L -> Inv F -> user_eq (abs L) (abs F) -> plain_op o ->
  let F' := if kept_back o then F else fst (step F (internal o)) in
  Inv (fst (step L o)) /\ Inv F' /\ user_eq (abs (fst (step L o))) (abs F').
Proof.
  intros HL HF Hu Ho. cbv zeta. destruct (step_data_write L o HL Ho) as (HL' & EL). split; [exact HL'|].
  pose proof (data_write_sim o _ _ Ho Hu) as Hs. destruct (kept_back o).
  - split; [exact HF|]. exact (user_eq_meq _ _ _ _ EL (fun q => eq_refl) Hs).
  - destruct (step_data_write F (internal o) HF (plain_internal o Ho)) as (HF' & EF). split; [exact HF'|].
    exact (user_eq_meq _ _ _ _ EL EF Hs).
Qed.

Inductive cwrite :=
| WrSet (c : cid) (k : str) (v : json)
| WrCSet (c : cid) (k : str) (v : json) (n : N)
| WrDelete (c : cid) (k : str)
| WrPDelete (c : cid) (pat : str).

Definition op_of (w : cwrite) : op :=
  match w with
  | WrSet c k v => OSet c k v false
  | WrCSet c k v n => OCSet c k v n false
  | WrDelete c k => ODelete c k
  | WrPDelete c pat => OPDelete c pat
  end.

(* excluded: ill-formed patterns (F3); of the no-crash clauses see the head of SyncAll.v *)
Definition admissible (L F : core) (w : cwrite) : Prop :=
  match w with
  | WrSet c k v => o_res (snd (do_insert L c k (Plain v) false)) <> RCrash /\ o_res (snd (do_insert F 0 k (Plain v) false)) <> RCrash
  | WrCSet c k v n => o_res (snd (do_insert L c k (Cas v n) false)) <> RCrash /\ o_res (snd (do_insert F 0 k (Cas v n) false)) <> RCrash
  | WrDelete _ _ => True
  | WrPDelete _ pat => wf_pat (kseg_parse pat) = true
  end.

Lemma fdrain_cons F w ws : fdrain F (w :: ws) = fdrain (fapply F w) ws.
Proof. reflexivity. Qed.

Lemma fdrain_app F a b : fdrain F (a ++ b) = fdrain (fdrain F a) b.
Proof. unfold fdrain. apply fold_left_app. Qed.

Lemma fdrain_mirror F w :
  fdrain F (mirror (op_of w)) = if kept_back (op_of w) then F else fst (step F (internal (op_of w))).
Proof. destruct w; cbn [op_of mirror kept_back]; now destruct (starts_with s_SYS_prefix _). Qed.

Theorem mirror_sim L F w :
  Inv L -> Inv F -> user_eq (abs L) (abs F) -> admissible L F w ->
  let L' := fst (step L (op_of w)) in
  let F' := fdrain F (mirror (op_of w)) in
  Inv L' /\ Inv F' /\ user_eq (abs L') (abs F').
Proof.
  intros HL HF Hu Ha. cbv zeta. rewrite fdrain_mirror. apply step_sim; try assumption.
  destruct w; try exact I. exact Ha.
Qed.

Fixpoint lrun (L : core) (ws : list cwrite) : core :=
  match ws with [] => L | w :: ws' => lrun (fst (step L (op_of w))) ws' end.
Fixpoint channel (ws : list cwrite) : list wcmd :=
  match ws with [] => [] | w :: ws' => mirror (op_of w) ++ channel ws' end.
Fixpoint admissible_run (L F : core) (ws : list cwrite) : Prop :=
  match ws with
  | [] => True
  | w :: ws' => admissible L F w /\ admissible_run (fst (step L (op_of w))) (fdrain F (mirror (op_of w))) ws'
  end.

Theorem converges ws : forall L F,
  Inv L -> Inv F -> user_eq (abs L) (abs F) -> admissible_run L F ws ->
  Inv (lrun L ws) /\ Inv (fdrain F (channel ws)) /\ user_eq (abs (lrun L ws)) (abs (fdrain F (channel ws))).
Proof.
  induction ws as [|w ws IH]; intros L F HL HF Hu Ha; [now split|].
  destruct Ha as [Ha Hrest]. cbn [lrun channel]. rewrite fdrain_app.
  destruct (mirror_sim L F w HL HF Hu Ha) as (HL' & HF' & Hu').
  now apply IH.
Qed.

(* follower.rs, process_api_call *)
Theorem follower_refuses_writes f o :
  follower_refuses o = true -> fstep_api f o = (f, out_res (RErr E_NotLeader)).
Proof. intros H. unfold fstep_api. now rewrite H. Qed.

Theorem follower_write_kinds c k v n force p t :
  follower_refuses (OSet c k v force) = true /\ follower_refuses (OCSet c k v n force) = true /\
  follower_refuses (ODelete c k) = true /\ follower_refuses (OPDelete c p) = true /\
  follower_refuses (OPublish k v) = true /\ follower_refuses (OSPubInit c t k) = true /\
  follower_refuses (OSPub c t v) = true /\ follower_refuses (OImport v) = true /\
  follower_refuses (OLock c k) = true /\ follower_refuses (OAcquire c k) = true /\
  follower_refuses (ORelease c k) = true.
Proof. repeat split. Qed.

(* known finding F10b: an imported CAS entry is mirrored as a forced cset carrying the imported version
   (Sync.import_mirror).  Stated here is the follower's half only: such a command with version v on an absent key
   leaves version 1, not v. *)
Theorem cas_import_refuted : exists v,
  let w := WCSet [107] JNull v true in
  abs (fapply init w) [[107]] = Some (Cas JNull 1) /\ v <> 1%N.
Proof. exists 7%N. vm_compute. split; [reflexivity|discriminate]. Qed.

(* the anonymous fix is the local [go] of Model [prune], as [cbn [prune]] shows it *)
Lemma prune_kids_go (cs : list (str * node entry)) :
  Forall (fun kc => prune (snd kc) = snd kc) cs ->
  (fix go (cs : list (str * node entry)) : list (str * node entry) :=
     match cs with [] => [] | (k, c) :: cs' => (k, prune c) :: go cs' end) cs = cs.
Proof.
  induction cs as [|[k c] cs IH]; intros H; [reflexivity|].
  inversion H as [|? ? Hc Hrest]; subst. cbn [snd] in Hc. rewrite Hc, (IH Hrest). reflexivity.
Qed.

Lemma prune_clean (n : node entry) : cleann n -> prune n = n.
Proof.
  induction n as [v cs IH] using node_In_ind. intros Hc. cbn [prune]. rewrite prune_kids_go.
  - now rewrite (trim_clean v cs Hc).
  - apply Forall_forall. intros [k c] Hin. exact (IH k c Hin (proj2 (cleann_kid _ _ _ _ Hc Hin))).
Qed.

Lemma cleann_strip_sys (n : node entry) : cleann n -> cleann (strip_sys s_SYS n).
Proof. destruct n as [v cs]. apply cleann_filter. Qed.

Lemma fjoin_data L : Inv L -> data (fst (fjoin L)) = strip_sys s_SYS (data L).
Proof. intros (_ & Hc & _). exact (prune_clean _ (cleann_strip_sys _ Hc)). Qed.

Lemma fjoin_abs L q : Inv L -> abs (fst (fjoin L)) q = if is_user q then abs L q else None.
Proof.
  intros HI. unfold abs. rewrite (fjoin_data L HI). destruct q as [|k q]; [exact (proj2 (proj2 (proj2 HI)))|].
  rewrite lookup_strip_sys, is_user_first. now destruct (str_eqb k s_SYS).
Qed.

Theorem join_agrees L :
  Inv L -> Inv (fst (fjoin L)) /\ user_eq (abs L) (abs (fst (fjoin L))).
Proof.
  intros HI. split.
  - pose proof HI as (Hw & Hc & Hg & Hr). unfold Inv. rewrite (fjoin_data L HI). destruct (data L) as [v cs].
    split; [|split; [|split]].
    + apply wfn_unfold in Hw as [Hn Hk]. apply wfn_unfold. split; [now apply NoDup_names_filter|now apply Forall_filter].
    + now apply cleann_strip_sys.
    + apply goodn_filter. exact (proj1 (goodn_unfold _ _) Hg).
    + exact Hr.
  - intros q Hq. now rewrite (fjoin_abs L q HI), Hq.
Qed.

(* C11, for every join point and every history of client writes after it *)
Theorem follower_converges L ws :
  Inv L -> admissible_run L (fst (fjoin L)) ws ->
  user_eq (abs (lrun L ws)) (abs (fdrain (fst (fjoin L)) (channel ws))).
Proof.
  intros HL Ha. destruct (join_agrees L HL) as [HF Hu].
  exact (proj2 (proj2 (converges ws L _ HL HF Hu Ha))).
Qed.

(* C12: what promotion computes: all grave goods and last wills applied, the result flushed and reloaded without $SYS,
   and those of the reloaded state applied to it *)
Theorem promote_spec f :
  let f1 := apply_gglw f (all_grave_goods f) (all_last_wills f) in
  node_ok (strip_sys s_SYS (data f1)) ->
  promote f = apply_gglw (core_of (strip_sys s_SYS (data f1))) (all_grave_goods f1) (all_last_wills f1).
Proof.
  intros f1 Hok. unfold promote. fold f1. unfold restart, load.
  rewrite (load_after_flush f1 [] Hok). reflexivity.
Qed.
