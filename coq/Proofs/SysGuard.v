(* check_for_read_only_key (worterbuch.rs:1518-1551) and its call sites. *)
From WB Require Import Base.Str Base.StrFacts Base.Json Model.Key Model.Consts Model.Store Model.Entry Model.Core
  Proofs.StoreFacts.

(* C08, the guard on a literal key: what a non-internal client may write under $SYS *)
Theorem guard_literal key c :
  c <> 0 -> key <> [] ->
  match split slash key with
  | p0 :: rest =>
      if str_eqb p0 s_SYS then
        (check_read_only key c = None <->
         exists p3 more, rest = s_clients :: client_str c :: p3 :: more /\
                         (p3 = s_graveGoods \/ p3 = s_lastWill \/ p3 = s_clientName))
        /\ (check_read_only key c <> None -> check_read_only key c = Some E_ReadOnlyKey)
      else check_read_only key c = None
  | [] => True
  end.
Proof.
  intros Hc Hk. unfold check_read_only. destruct key as [|b key]; [congruence|].
  apply N.eqb_neq in Hc. rewrite Hc.
  destruct (split slash (b :: key)) as [|p0 rest]; [exact I|].
  destruct (str_eqb p0 s_SYS); cbn [negb]; [|reflexivity].
  destruct rest as [|p1 [|p2 [|p3 more]]].
  1-3: split; [split; [discriminate|intros (? & ? & E & _); discriminate]|reflexivity].
  destruct (str_eqb_spec p1 s_clients) as [->|H1]; cbn [negb orb].
  - destruct (str_eqb_spec p2 (client_str c)) as [->|H2]; cbn [negb].
    + destruct (str_eqb_spec p3 s_graveGoods) as [E3|H3];
        [|destruct (str_eqb_spec p3 s_lastWill) as [E4|H4]; [|destruct (str_eqb_spec p3 s_clientName) as [E5|H5]]];
        cbn [orb].
      1-3: split; [split; [intros _; eauto 6|reflexivity]|congruence].
      split; [split; [discriminate|]|reflexivity].
      intros (q3 & m & E & Hq). injection E as <- _. destruct Hq as [Hq|[Hq|Hq]]; congruence.
    + split; [split; [discriminate|]|reflexivity].
      intros (q3 & m & E & _). injection E as E _. congruence.
  - split; [split; [discriminate|]|reflexivity].
    intros (q3 & m & E & _). injection E as E _. congruence.
Qed.

Theorem refused_is_identity s c key code :
  check_read_only key c = Some code ->
  (forall e f, do_insert s c key e f = (s, out_res (RErr code))) /\
  do_delete s c key = (s, out_res (RErr code)) /\
  do_pdelete s c false key = (s, out_res (RErr code)) /\
  (forall t, do_spub_init s c t key = (s, out_res (RErr code))).
Proof.
  intros H. unfold do_insert, do_delete, do_pdelete, do_spub_init. rewrite H. repeat split; reflexivity.
Qed.
