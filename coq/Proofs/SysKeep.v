(* C08 as a statement about states: whatever an ordinary client asks for -- with a literal key, or with a pattern whose
   first segment is literal -- every value under $SYS other than that client's own graveGoods / lastWill / clientName
   entries reads afterwards as before (client_keeps_sys), along any history of any number of clients (clients_keep_sys);
   and a session end touches only the client count and the subtree of the ending client (session_end_keeps_sys).
   [leaves q] collects the requests that leave $SYS/q alone, and a run of them does (leaves_run): WorldSys.v builds on
   that.  (A pattern whose first segment is a wildcard is known finding F4; publish changes no state, what it shows
   subscribers is F5.) *)
From Coq Require Import List.
Import ListNotations.
From WB Require Import Base.Str Base.StrFacts Base.Json Model.Key Model.Consts Model.Store Model.Match Model.Subs Model.Entry Model.Core Model.Rest
  Spec.MapSpec Proofs.StoreFacts Proofs.GoodNames Proofs.CoreFacts Proofs.LenFacts Proofs.C01Proof Proofs.StreamProof Proofs.SysGuard Proofs.Frame Proofs.SessionEnd
  Proofs.StreamAll Proofs.Writes Proofs.RunAt Proofs.MatchFacts.
Local Open Scope N_scope.

(* the entries under $SYS a client may write: $SYS/clients/<own id>/{graveGoods,lastWill,clientName}[/...] *)
Definition own_entry (c : cid) (q : list str) : Prop :=
  exists p3 more, q = s_clients :: client_str c :: p3 :: more /\ (p3 = s_graveGoods \/ p3 = s_lastWill \/ p3 = s_clientName).

Definition literal_first (pat : str) : Prop := match kseg_parse pat with Reg _ :: _ => True | _ => False end.
Definition client_req (c : cid) (o : op) : Prop :=
  match o with
  | OSet c' _ _ _ | OCSet c' _ _ _ _ | ODelete c' _ => c' = c
  | OPDelete c' pat => c' = c /\ literal_first pat
  | OImport _ => import_ok o
  | OConnected _ | ODisconnected _ => False
  | _ => True
  end.

Lemma literal_first_split pat :
  literal_first pat -> exists x rest, split slash pat = x :: rest /\ kseg_parse pat = Reg x :: map kseg_of_str rest.
Proof.
  unfold literal_first, kseg_parse. destruct (split slash pat) as [|x rest]; [contradiction|]. cbn [map].
  destruct (kseg_of_str x) as [y| |] eqn:E; try contradiction. intros _. apply kseg_reg_str in E. subst y. now exists x, rest.
Qed.

(* the pattern of the server's own clean-up at a session end *)
Definition own_pat (c : cid) : str := topic [s_SYS; s_clients; client_str c; s_hash].

Lemma own_pat_parse c : kseg_parse (own_pat c) = [Reg s_SYS; Reg s_clients; Reg (client_str c); Multi].
Proof.
  unfold kseg_parse, own_pat. rewrite split_client_topic by now apply no_sep_forallb. cbn [map]. now rewrite kseg_client_str.
Qed.

Lemma accepted_sys_key c k q :
  c <> 0 -> check_read_only k c = None -> split slash k = s_SYS :: q -> own_entry c q.
Proof.
  intros Hc Hg Hs. assert (Hk : k <> []) by (intros ->; discriminate).
  pose proof (guard_literal k c Hc Hk) as G. rewrite Hs, str_eqb_refl in G. exact (proj1 (proj1 G) Hg).
Qed.

Lemma point_write_keeps_sys c k u m q :
  c <> 0 -> ~ own_entry c q -> point_write c k u m (s_SYS :: q) = m (s_SYS :: q).
Proof.
  intros Hc Hno. destruct (point_write_at c k u m (s_SYS :: q)) as [E|(x & Hg & Hp & _)]; [exact E|].
  elim Hno. apply (accepted_sys_key c k q Hc Hg). now apply parse_segments_good in Hp as (<- & _).
Qed.

(* the segments of an own entry are literal: a pattern that spells one out matches only below it *)
Lemma own_entry_match c rest q :
  own_entry c rest -> store_match (map kseg_of_str (s_SYS :: rest)) (s_SYS :: q) = true -> own_entry c q.
Proof.
  intros (p3 & more & -> & Hp3) Em. cbn [map] in Em.
  assert (K3 : kseg_of_str p3 = Reg p3) by (destruct Hp3 as [->|[->| ->]]; reflexivity).
  change (kseg_of_str s_SYS) with (Reg s_SYS) in Em. change (kseg_of_str s_clients) with (Reg s_clients) in Em.
  rewrite kseg_client_str, K3 in Em.
  destruct (store_match_lits [s_SYS; s_clients; client_str c; p3] _ _ Em) as (q' & [= ->]). now exists p3, q'.
Qed.

Lemma pdel_write_keeps_sys c pat m q :
  c <> 0 -> literal_first pat -> ~ own_entry c q -> pdel_write c pat m (s_SYS :: q) = m (s_SYS :: q).
Proof.
  intros Hc Hlit Hno. destruct (pdel_write_at c pat m (s_SYS :: q)) as [E|(Hg & Em & _)]; [exact E|]. elim Hno.
  destruct (literal_first_split pat Hlit) as (x & rest & Es & Ek). rewrite Ek in Em.
  destruct (store_match_lits [x] _ _ Em) as (q0 & [= <- _]).
  exact (own_entry_match c rest q (accepted_sys_key c pat rest Hc Hg Es) Em).
Qed.

Lemma client_req_elem c o : client_req c o -> elem o /\ import_ok o.
Proof. destruct o; try contradiction; intros Hreq; split; try exact I. exact Hreq. Qed.

Lemma client_write c o m q :
  c <> 0 -> client_req c o -> ~ own_entry c q -> data_write o m (s_SYS :: q) = m (s_SYS :: q).
Proof.
  intros Hc Hreq Hno. destruct o; cbn [client_req] in Hreq; try contradiction; try reflexivity; cbn [data_write].
  - subst c0. now apply point_write_keeps_sys.
  - subst c0. now apply point_write_keeps_sys.
  - subst c0. now apply point_write_keeps_sys.
  - destruct Hreq as (-> & Hlit). now apply pdel_write_keeps_sys.
  - destruct (dec_persisted j); [|reflexivity]. unfold m_import. now rewrite lookup_strip_sys, str_eqb_refl.
Qed.

Definition leaves (q : list str) (o : op) : Prop :=
  match o with
  | OSet 0 k _ _ => parse_segments k <> Ok (s_SYS :: q)
  | OPDelete 0 pat => store_match (kseg_parse pat) (s_SYS :: q) = false
  | OUnsubscribe _ _ | OUnsubscribeLs _ _ => True
  | _ => exists c, c <> 0 /\ client_req c o /\ ~ own_entry c q
  end.

Lemma client_leaves c o q : c <> 0 -> client_req c o -> ~ own_entry c q -> leaves q o.
Proof.
  intros Hc Hreq Hno. assert (H : exists c, c <> 0 /\ client_req c o /\ ~ own_entry c q) by eauto.
  destruct o; try exact H; try exact I; cbn [client_req] in Hreq.
  - subst c0. destruct c; [contradiction|exact H].
  - destruct Hreq as (-> & _). destruct c; [contradiction|exact H].
Qed.

Lemma leaves_elem q o : leaves q o -> elem o /\ import_ok o.
Proof.
  intros Hl. destruct o; try (split; exact I); destruct Hl as (c' & _ & Hreq & _); exact (client_req_elem c' _ Hreq).
Qed.

Lemma leaves_write q o m : leaves q o -> data_write o m (s_SYS :: q) = m (s_SYS :: q).
Proof.
  intros Hl.
  assert (Hcl : (exists c, c <> 0 /\ client_req c o /\ ~ own_entry c q) -> data_write o m (s_SYS :: q) = m (s_SYS :: q)).
  { intros (c & Hc & Hreq & Hno). now apply (client_write c). }
  destruct o; cbn [leaves] in Hl; try (now apply Hcl); try reflexivity.
  - (* the server's own set *) destruct c; [|now apply Hcl]. now apply point_write_other.
  - (* the server's own pdelete *) destruct c; [|now apply Hcl]. cbn [data_write].
    destruct (pdel_write_at 0 p m (s_SYS :: q)) as [E|(_ & Em & _)]; [exact E|]. now rewrite Hl in Em.
Qed.

Lemma leaves_keeps q x o : leaves q o -> keeps (s_SYS :: q) (fun y => y = x) o.
Proof. intros Hl. apply keeps_same. intros m. now apply leaves_write. Qed.

Lemma leaves_run q ops s :
  Inv s -> Forall (leaves q) ops -> abs (final s ops) (s_SYS :: q) = abs s (s_SYS :: q).
Proof.
  intros HI Hl. refine (proj2 (run_at (s_SYS :: q) (fun y => y = abs s (s_SYS :: q)) ops s HI _ _ _ eq_refl));
    (eapply Forall_impl; [|exact Hl]); intros o Ho.
  - exact (proj1 (leaves_elem q o Ho)).
  - exact (proj2 (leaves_elem q o Ho)).
  - now apply leaves_keeps.
Qed.

Theorem client_keeps_sys s c o q :
  Inv s -> c <> 0 -> client_req c o -> ~ own_entry c q ->
  abs (fst (step s o)) (s_SYS :: q) = abs s (s_SYS :: q).
Proof. intros HI Hc Hreq Hno. apply (leaves_run q [o] s HI). constructor; [now apply (client_leaves c)|constructor]. Qed.

Fixpoint client_hist (os : list (cid * op)) : Prop :=
  match os with [] => True | (c, o) :: r => c <> 0 /\ client_req c o /\ client_hist r end.

(* the hypothesis [LenInv s], here and at [session_end_keeps_sys], is not needed, and here neither is [no_crash_run] *)
Theorem clients_keep_sys os : forall s q,
  Inv s -> LenInv s -> client_hist os -> no_crash_run s (map snd os) ->
  (forall c, In c (map fst os) -> ~ own_entry c q) ->
  abs (final s (map snd os)) (s_SYS :: q) = abs s (s_SYS :: q).
Proof.
  intros s q HI _ Hh _ Hno. apply leaves_run; [exact HI|].
  induction os as [|[c o] os IH]; [constructor|]. destruct Hh as (Hc & Hreq & Hh). constructor.
  - apply (client_leaves c o q Hc Hreq), Hno. now left.
  - apply IH; [exact Hh|]. intros c' Hin. apply Hno. now right.
Qed.

Example own_entry_demo : own_entry 1 [s_clients; client_str 1; s_graveGoods] /\ ~ own_entry 1 [s_clients; client_str 2; s_graveGoods] /\ ~ own_entry 1 [[118]].
Proof.
  split; [exists s_graveGoods, []; auto|]. split; intros (p3 & more & E & _); discriminate.
Qed.

Example clients_keep_sys_demo :
  let s0 := fst (step init (OSet 0 [36;83;89;83;47;118] (JStr [120]) true)) in          (* $SYS/v = "x", set by the server *)
  let os := [(1, OSet 1 [36;83;89;83;47;118] (JStr [101]) false); (1, ODelete 1 [36;83;89;83;47;118]); (2, OPDelete 2 [36;83;89;83;47;35]);
             (1, OSet 1 (topic [s_SYS; s_clients; client_str 1; s_graveGoods]) (JArr []) false); (2, OSet 2 [97] JNull false)] in
  (client_hist os /\ no_crash_run s0 (map snd os)) /\
  abs (final s0 (map snd os)) [s_SYS; [118]] = Some (Plain (JStr [120])) /\
  abs (final s0 (map snd os)) [s_SYS; s_clients; client_str 1; s_graveGoods] = Some (Plain (JArr [])).
Proof.
  split; [split|].
  - cbn [client_hist]. repeat split; try discriminate; try exact I.
  - vm_compute. repeat split; discriminate.
  - vm_compute. split; reflexivity.
Qed.

Lemma disconnected_keeps_sys s c q :
  Inv s -> Forall literal_first (gg_of s c) ->
  is_crash (snd (do_disconnected s c)) = false ->
  q <> [s_clients] -> (forall r, q <> s_clients :: client_str c :: r) ->
  abs (fst (do_disconnected s c)) (s_SYS :: q) = abs s (s_SYS :: q).
Proof.
  intros HI Hlit Hnc Hq1 Hq2.
  assert (Hc0 : c <> 0) by (intros ->; discriminate Hnc).
  refine (proj2 (step_run (s_SYS :: q) (fun y => y = abs s (s_SYS :: q)) s (ODisconnected c) HI I _ (proj1 (crash_res _) Hnc) eq_refl)).
  rewrite (expand_disconnected s c Hc0). eapply Forall_impl; [intros o; apply leaves_keeps|].
  assert (Hown : forall o, client_req c o -> leaves q o).
  { intros o Hreq. apply (client_leaves c o q Hc0 Hreq). intros (p3 & more & E & _). exact (Hq2 _ E). }
  apply Forall_end_ops; try (intros; exact I).
  - (* the client count *)
    intros v Hp. apply parse_segments_good in Hp as (Hp & _).
    rewrite (split_sys_topic [] (Forall_nil _)) in Hp. injection Hp as Hp. now elim Hq1.
  - (* the server removes the client's subtree *)
    cbn [leaves]. fold (own_pat c). rewrite own_pat_parse. destruct (store_match _ _) eqn:Em; [|reflexivity].
    destruct (store_match_lits [s_SYS; s_clients; client_str c] _ _ Em) as (r & [= ->]). now elim (Hq2 r).
  - (* a grave good *) intros g Hg. apply Hown. split; [reflexivity|]. rewrite Forall_forall in Hlit. now apply Hlit.
  - (* a last-will entry *) intros kv _. apply Hown. reflexivity.
Qed.

(* as C08 states it *)
Theorem session_end_keeps_sys s c q :
  Inv s -> LenInv s -> Forall literal_first (gg_of s c) ->
  is_crash (snd (do_disconnected s c)) = false ->
  q <> [s_clients] -> (forall r, q <> s_clients :: client_str c :: r) ->
  abs (fst (do_disconnected s c)) (s_SYS :: q) = abs s (s_SYS :: q).
Proof. intros HI _. now apply disconnected_keeps_sys. Qed.
