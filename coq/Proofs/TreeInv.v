(* Cleanliness (no obsolete node below the root = Store's debug_assert!(is_clean)) and what ls returns. *)
From WB Require Import Base.ListFacts Base.Str Base.StrFacts Model.Key Model.Store Model.Match Proofs.StoreFacts.

Fixpoint cleann {V} (n : node V) : Prop :=
  match n with
  | Node _ cs =>
      (fix go (cs : list (str * node V)) : Prop :=
         match cs with
         | [] => True
         | (_, c) :: cs' => (is_obsolete c = false /\ cleann c) /\ go cs'
         end) cs
  end.

Lemma cleann_unfold {V} (v : option V) cs :
  cleann (Node v cs) <-> Forall (fun kc => is_obsolete (snd kc) = false /\ cleann (snd kc)) cs.
Proof. exact (kids_Forall (fun _ c => is_obsolete c = false /\ cleann c) cs). Qed.

Lemma cleann_kid {V} (v : option V) cs k c :
  cleann (Node v cs) -> In (k, c) cs -> is_obsolete c = false /\ cleann c.
Proof. intros H Hin. apply cleann_unfold in H. rewrite Forall_forall in H. exact (H _ Hin). Qed.

Lemma cleann_kids {V} (v : option V) cs : cleann (Node v cs) -> Forall (fun kc => cleann (snd kc)) cs.
Proof. intros H. apply cleann_unfold in H. eapply Forall_impl; [|exact H]. now intros kc [_ Hc]. Qed.

Lemma is_clean_spec {V} (n : node V) :
  is_clean n = true <-> is_obsolete n = false /\ cleann n.
Proof.
  induction n as [v cs IH] using node_ind'.
  destruct cs as [|[k c] cs].
  - cbn. destruct v; split; try (intros [? ?]); try discriminate; auto.
  - assert (E : is_clean (Node v ((k, c) :: cs)) = forallb (fun kc => is_clean (snd kc)) ((k, c) :: cs)).
    { cbn [is_clean forallb snd]. f_equal. clear IH.
      induction cs as [|[k' c'] cs IHl]; cbn [forallb snd]; [reflexivity|]. now rewrite IHl. }
    rewrite E, forallb_forall, cleann_unfold, Forall_forall. rewrite Forall_forall in IH.
    split.
    + intros H. split; [now destruct v|]. intros kc Hin. apply IH; [assumption|]. now apply H.
    + intros [_ H] kc Hin. apply IH; [assumption|]. now apply H.
Qed.

Lemma root_ok_spec {V} (n : node V) : root_ok n = true <-> cleann n.
Proof.
  destruct n as [v cs]. unfold root_ok. cbn [nkids]. destruct cs as [|kc cs].
  - split; [intros _; exact I|reflexivity].
  - rewrite is_clean_spec. split; [now intros [_ H]|]. intros H. split; [|assumption]. now destruct v.
Qed.

Lemma clean_has_entry {V} (n : node V) :
  is_obsolete n = false -> cleann n -> exists q e, lookup n q = Some e.
Proof.
  induction n as [v cs IH] using node_In_ind. intros Hno Hcl.
  destruct v as [e|]; [now exists [], e|]. destruct cs as [|[k c] cs]; [discriminate|].
  destruct (cleann_kid _ _ k c Hcl (or_introl eq_refl)) as [Hc1 Hc2].
  destruct (IH k c (or_introl eq_refl) Hc1 Hc2) as (q & e & Hl).
  exists (k :: q), e. rewrite lookup_cons. cbn. now rewrite str_eqb_refl.
Qed.

Lemma get_node_app {V} (n : node V) p : forall r,
  get_node n (p ++ r) = match get_node n p with Some m => get_node m r | None => None end.
Proof.
  revert n. induction p as [|k p IH]; intros n r; [reflexivity|].
  cbn. destruct (find_child k (nkids n)); [apply IH|reflexivity].
Qed.

Lemma lookup_app {V} (n : node V) p r :
  lookup n (p ++ r) = match get_node n p with Some m => lookup m r | None => None end.
Proof. unfold lookup. rewrite get_node_app. now destruct (get_node n p). Qed.

Lemma get_node_inv {V} (n : node V) p : forall m,
  wfn n -> cleann n -> get_node n p = Some m ->
  wfn m /\ cleann m /\ (p <> [] -> is_obsolete m = false).
Proof.
  revert n. induction p as [|k p IH]; intros [v cs] m Hwf Hcl Hg.
  - injection Hg as <-. split; [assumption|]. split; [assumption|]. intros H. now elim H.
  - cbn in Hg. destruct (find_child k cs) as [c|] eqn:Ef; [|discriminate]. apply find_child_In in Ef.
    destruct (cleann_kid _ _ _ _ Hcl Ef) as [Hno Hclc].
    destruct (IH c m (wfn_kid _ _ _ _ Hwf Ef) Hclc Hg) as (H1 & H2 & H3). repeat split; try assumption.
    intros _. destruct p; [|apply H3; discriminate]. cbn in Hg. now injection Hg as <-.
Qed.

(* C05: ls answers exactly the distinct next segments of the keys stored below the parent *)
Theorem ls_exact {V} (n : node V) P :
  wfn n -> cleann n ->
  match ls_at n P with
  | Some l => NoDup l /\ forall x, In x l <-> exists q e, lookup n (P ++ x :: q) = Some e
  | None => forall q, lookup n (P ++ q) = None
  end.
Proof.
  intros Hwf Hcl. unfold ls_at. destruct (get_node n P) as [m|] eqn:Eg.
  - destruct (get_node_inv _ _ _ Hwf Hcl Eg) as (Hwm & Hcm & _).
    destruct m as [v cs]. cbn [nkids]. apply wfn_unfold in Hwm as [Hnd _].
    split; [assumption|]. intros x. split.
    + intros Hin. unfold names in Hin. apply in_map_iff in Hin as ([k c] & <- & Hin). cbn [fst].
      destruct (cleann_kid _ _ _ _ Hcm Hin) as [Hno Hcc].
      destruct (clean_has_entry c Hno Hcc) as (q & e & Hl).
      exists q, e. now rewrite lookup_app, Eg, (lookup_kid _ _ _ _ _ Hnd Hin).
    + intros (q & e & Hl). rewrite lookup_app, Eg in Hl. apply lookup_below in Hl as (c & Hin & _).
      exact (in_map fst _ _ Hin).
  - intros q. now rewrite lookup_app, Eg.
Qed.

(* C05: and "no such value" exactly when nothing is stored at or below the parent *)
Theorem ls_none_iff {V} (n : node V) P :
  wfn n -> cleann n -> P <> [] ->
  (ls_at n P = None <-> forall q, lookup n (P ++ q) = None).
Proof.
  intros Hwf Hcl Hne. split.
  - intros H. pose proof (ls_exact n P Hwf Hcl) as G. now rewrite H in G.
  - intros H. unfold ls_at. destruct (get_node n P) as [m|] eqn:Eg; [|reflexivity].
    destruct (get_node_inv _ _ _ Hwf Hcl Eg) as (Hwm & Hcm & Hno).
    destruct (clean_has_entry m (Hno Hne) Hcm) as (q & e & Hl).
    specialize (H q). rewrite lookup_app, Eg in H. congruence.
Qed.

Lemma set_at_not_obsolete {V} p (e : V) n : is_obsolete (set_at p e n) = false.
Proof.
  destruct p as [|k p]; destruct n as [v cs]; [reflexivity|].
  cbn [set_at nval nkids]. destruct cs as [|[k' c] cs]; cbn; [now destruct v|].
  destruct (str_eqb k k'); now destruct v.
Qed.

Theorem cleann_set_at {V} p (e : V) : forall n, cleann n -> cleann (set_at p e n).
Proof.
  induction p as [|k p IH]; intros [v cs] Hcl; [exact Hcl|].
  cbn [set_at nval nkids]. apply cleann_unfold in Hcl. apply cleann_unfold.
  apply (Forall_upd_child (fun _ c => is_obsolete c = false /\ cleann c)); [assumption| |].
  - intros c [_ Hc]. split; [apply set_at_not_obsolete|now apply IH].
  - split; [apply set_at_not_obsolete|]. apply IH. exact I.
Qed.

Lemma cleann_filter {V} (v v' : option V) g cs : cleann (Node v cs) -> cleann (Node v' (filter g cs)).
Proof. intros H. apply cleann_unfold, Forall_filter. now apply cleann_unfold in H. Qed.

Lemma cleann_trim {V} (v : option V) cs :
  Forall (fun kc => cleann (snd kc)) cs -> cleann (Node v (trim_kids cs)).
Proof.
  intros H. apply cleann_unfold. apply Forall_forall. intros kc Hin.
  apply filter_In in Hin as [Hin Hno]. apply negb_true_iff in Hno. split; [assumption|].
  rewrite Forall_forall in H. now apply H.
Qed.

Theorem cleann_del_at {V} p : forall (n : node V), cleann n -> cleann (del_at p n).
Proof.
  induction p as [|k p IH]; intros [v cs] Hcl; [exact Hcl|].
  cbn [del_at nkids nval]. destruct (find_child k cs); [|assumption].
  apply cleann_trim, (Forall_mod_child (fun _ c => cleann c)); [now apply cleann_kids in Hcl|exact IH].
Qed.

Lemma trim_clean {V} (v : option V) cs : cleann (Node v cs) -> trim_kids cs = cs.
Proof. intros H. apply filter_all. intros [k c] Hin. cbn [snd]. now rewrite (proj1 (cleann_kid _ _ _ _ H Hin)). Qed.

Lemma del_at_absent {V} p : forall (n : node V), wfn n -> cleann n -> lookup n p = None -> del_at p n = n.
Proof.
  induction p as [|k p IH]; intros [v cs] Hw Hc Hl.
  - rewrite lookup_nil in Hl. cbn [nval] in Hl. now subst v.
  - cbn [del_at nkids nval]. rewrite lookup_cons in Hl. destruct (find_child k cs) as [c|] eqn:Ef; [|reflexivity].
    pose proof (find_child_In _ _ _ Ef) as Hin.
    rewrite (mod_child_id k (del_at p) cs c Ef), (trim_clean v cs Hc); [reflexivity|].
    apply IH; [exact (wfn_kid _ _ _ _ Hw Hin)|exact (proj2 (cleann_kid _ _ _ _ Hc Hin))|exact Hl].
Qed.

Theorem cleann_delm {V} (n : node V) : forall trav p, cleann n -> cleann (dr_node (delm n trav p)).
Proof.
  intros trav p. revert n trav. induction p as [|[s| |] tail IH]; intros [v cs] trav Hcl.
  - rewrite delm_nil. exact Hcl.
  - rewrite delm_node_reg. apply cleann_trim, (Forall_mod_child (fun _ c => cleann c)); [now apply cleann_kids in Hcl|].
    intros c. apply IH.
  - rewrite delm_node_wild. apply cleann_trim, Forall_map. apply cleann_kids in Hcl.
    eapply Forall_impl; [|exact Hcl]. intros kc. apply IH.
  - destruct tail; [rewrite delm_multi; exact I|now rewrite delm_multi_bad].
Qed.
