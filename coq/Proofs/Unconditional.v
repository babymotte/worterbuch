(* The history theorems without their "no request crashes" hypotheses: by NoCrash.v no request of a history of safe
   requests (everything except a cset at version u64::MAX, an import of a tree with irregular names, and the nil
   client id at session start or end) takes a crash branch. *)
From WB Require Import Base.Str Model.Subs Model.Core Proofs.Frame Proofs.CoreFacts Proofs.StreamProof Proofs.C01Proof
  Proofs.LockHistory Proofs.StreamAll Proofs.FoldProof Proofs.NoCrash.

Lemma safe_import_ok os : Forall safe_op os -> Forall import_ok os.
Proof. apply Forall_impl. now intros o (_ & Hi). Qed.

Lemma nocrash_run s os : nocrash (trace s os) -> no_crash_run s os.
Proof.
  revert s. induction os as [|o os IH]; intros s H; [exact I|]. cbn [no_crash_run]. split.
  - apply crash_res. apply H. now left.
  - apply IH. intros x Hx. apply H. now right.
Qed.

Theorem safe_prefix pre os :
  Forall safe_op (pre ++ os) ->
  K (final init pre) /\ no_crash_run (final init pre) os /\ Forall import_ok os.
Proof.
  intros H. apply Forall_app in H as (Hp & Ho).
  destruct (history_safe pre init Inv_init LH_init Hp) as (Hn1 & HI).
  destruct (history_safe os _ HI (reach_LH pre) Ho) as (Hn2 & _).
  split; [|split; [now apply nocrash_run|now apply safe_import_ok]].
  apply (reach_K pre init K_init (safe_import_ok pre Hp)). now apply nocrash_run.
Qed.

(* C03: a subscription registered after [pre], followed through [os] *)
Theorem stream_all_safe pre os sb :
  Forall safe_op (pre ++ os) -> Registered (final init pre) sb -> Forall (foreign sb) os ->
  stream (s_inst sb) (final init pre) os = wanted_stream sb (final init pre) os.
Proof.
  intros H HR Hf. destruct (safe_prefix pre os H) as (HK & Hnc & Hi). now apply stream_all.
Qed.

Theorem silent_all_safe pre os i :
  Forall safe_op (pre ++ os) -> Gone (final init pre) i -> stream i (final init pre) os = [].
Proof.
  intros H HG. destruct (safe_prefix pre os H) as (HK & Hnc & Hi). now apply silent_all.
Qed.

Theorem fold_is_pget_safe pre os sb F :
  Forall safe_op (pre ++ os) -> s_pstate sb = true -> Registered (final init pre) sb ->
  Forall quiet_kind os -> Forall (foreign sb) os -> AgreeM sb (val_of (final init pre)) F ->
  AgreeM sb (val_of (final (final init pre) os)) (fold_evs F (stream (s_inst sb) (final init pre) os)).
Proof.
  intros H Hps HR Hq Hf HA. destruct (safe_prefix pre os H) as (HK & Hnc & Hi). now apply fold_is_pget.
Qed.

(* C06: confirm-once along every safe history *)
Theorem confirm_once_safe ops :
  Forall safe_op ops ->
  let s := final init ops in let R := resolved (trace init ops) in
  NoDup R /\
  (forall r, In r R -> r < next_req s /\ forall q c, ~ cpend s q c r) /\
  (forall r, r < next_req s -> In r R \/ exists q c, cpend s q c r).
Proof. intros H. apply confirm_once. now apply no_request_crashes. Qed.
