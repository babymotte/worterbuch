(* C15 at the level of the sockets.  With authorization required a session that has not presented a valid token owns
   nothing in the server -- no subscription of either kind, no publish stream -- whatever history lies behind it; so the
   three request kinds the authorization table leaves unchecked (sPub, unsubscribe, unsubscribeLs) find nothing to act on
   and every other request this protocol version has ends the session: the handler grants such a session nothing but a
   protocol switch and leaves the core as it is.  (Where the verdict is Close the session then ends, and that is a core
   request of its own.) *)
From Coq Require Import Lia List.
Import ListNotations.
From WB Require Import Base.Str Base.Json Model.Key Model.Core Model.Codec Model.Auth Model.Session Proofs.Frame
  Proofs.CoreFacts Proofs.LockHistory Proofs.SessionEnd Proofs.SessionFacts Proofs.NoCrash Proofs.WorldCore.
Local Open Scope N_scope.

Definition owners (s : core) : list cid :=
  map (fun e => fst (fst e)) (subscriptions s) ++ map (fun e => fst (fst e)) (ls_subscriptions s) ++ map (fun e => fst (fst e)) (spub_keys s).
Definition owned (s : core) (c : cid) : Prop := In c (owners s).

Definition creates (o : op) (c : cid) : Prop :=
  match o with
  | OSubscribe c' _ _ _ _ | OPSubscribe c' _ _ _ _ | OSubscribeLs c' _ _ | OSPubInit c' _ _ => c' = c
  | _ => False
  end.

Lemma assoc_set_owner {V} (k : N * N) (v : V) l c :
  In c (map (fun e : (N * N) * V => fst (fst e)) (assoc_set id_eqb k v l)) -> In c (map (fun e => fst (fst e)) l) \/ fst k = c.
Proof.
  induction l as [|[k' v'] l IH]; cbn [assoc_set map fst In]; [intros [<-|[]]; now right|].
  destruct (id_eqb k k') eqn:E; cbn [map fst In]; [tauto|]. intros [<-|H]; [now left; left|]. destruct (IH H); [left; now right|now right].
Qed.

Lemma filter_owner {V} (f : (N * N) * V -> bool) (l : list ((N * N) * V)) c :
  In c (map (fun e => fst (fst e)) (filter f l)) -> In c (map (fun e => fst (fst e)) l).
Proof. intros H. apply in_map_iff in H as (e & <- & Hin). apply filter_In in Hin as (Hin & _). apply in_map_iff. now exists e. Qed.

Lemma owners_tabs s s' : subscriptions s' = subscriptions s -> ls_subscriptions s' = ls_subscriptions s -> spub_keys s' = spub_keys s -> owners s' = owners s.
Proof. unfold owners. now intros -> -> ->. Qed.

Lemma insert_owners s c k e f : owners (fst (do_insert s c k e f)) = owners s.
Proof. destruct (insert_tables s c k e f) as (A & B & C & _). now apply owners_tabs. Qed.

Lemma seq2_insert_owners r c k e f :
  owners (fst (seq2 r (fun s => do_insert s c k e f))) = owners (fst r).
Proof. unfold seq2. destruct (is_crash (snd r)); [reflexivity|apply insert_owners]. Qed.

Lemma owned_iff s c :
  owned s c <-> In c (map (fun e => fst (fst e)) (subscriptions s)) \/ In c (map (fun e => fst (fst e)) (ls_subscriptions s)) \/
                In c (map (fun e => fst (fst e)) (spub_keys s)).
Proof. unfold owned, owners. now rewrite !in_app_iff. Qed.

Lemma owned_within (P : cid -> Prop) s s' c :
  (forall x, In x (map (fun e => fst (fst e)) (subscriptions s')) -> In x (map (fun e => fst (fst e)) (subscriptions s)) \/ P x) ->
  (forall x, In x (map (fun e => fst (fst e)) (ls_subscriptions s')) -> In x (map (fun e => fst (fst e)) (ls_subscriptions s)) \/ P x) ->
  (forall x, In x (map (fun e => fst (fst e)) (spub_keys s')) -> In x (map (fun e => fst (fst e)) (spub_keys s)) \/ P x) ->
  owned s' c -> owned s c \/ P c.
Proof. intros H1 H2 H3. rewrite !owned_iff. intros [H|[H|H]]; [apply H1 in H|apply H2 in H|apply H3 in H]; tauto. Qed.

Lemma disconnected_owned s c c' :
  is_crash (snd (do_disconnected s c)) = false -> owned (fst (do_disconnected s c)) c' -> owned s c' /\ c' <> c.
Proof.
  intros Hnc. destruct (disconnected_tables s c Hnc) as (T1 & T2 & T3 & _). rewrite !owned_iff.
  intros [H|[H|H]]; apply in_map_iff in H as ([id x] & <- & Hin); [apply T1 in Hin|apply T2 in Hin|apply T3 in Hin].
  all: destruct Hin as (Hin & Hne); split; [|exact Hne].
  all: apply (in_map (fun e => fst (fst e))) in Hin; auto.
Qed.

(* a request writes one part of the core (Frame.step_frame); only the four creating kinds add an entry to a table *)
Lemma step_owned s o c :
  is_crash (snd (step s o)) = false -> owned (fst (step s o)) c -> owned s c \/ creates o c.
Proof.
  intros Hnc. pose proof (step_frame s o) as F. destruct (part_of o) eqn:P.
  - rewrite F. now left.
  - destruct F as (d & n & ->). now left.
  - clear F. destruct o; try discriminate P; cbn [step creates].
    + unfold do_subscribe. destruct (if live then _ else _); [|now left].
      apply owned_within; auto. exact (assoc_set_owner (c0, t) _ _).
    + unfold do_psubscribe. destruct (if live then _ else _); [|now left].
      apply owned_within; auto. exact (assoc_set_owner (c0, t) _ _).
    + unfold do_unsubscribe. destruct (assoc_get _ _ _); [|now left].
      apply (owned_within (fun _ => False)); auto. intros x Hx. left. exact (filter_owner _ _ x Hx).
  - clear F. destruct o; try discriminate P; cbn [step creates].
    + apply owned_within; auto. exact (assoc_set_owner (c0, t) _ _).
    + unfold do_unsubscribe_ls. destruct (assoc_get _ _ _); [|now left].
      apply (owned_within (fun _ => False)); auto. intros x Hx. left. exact (filter_owner _ _ x Hx).
  - clear F. destruct o; try discriminate P; cbn [step creates].
    unfold do_spub_init. destruct (check_read_only k c0); [now left|].
    apply owned_within; auto. exact (assoc_set_owner (c0, t) _ _).
  - destruct F as (l & lk & nr & ->). now left.
  - clear F. intros H. left. destruct o; try discriminate P; cbn [step] in *.
    + revert H. unfold owned, do_connected. destruct (N.eqb c0 0); [tauto|]. destruct (existsb _ _); [tauto|].
      cbn [fst]. now rewrite !seq2_insert_owners, insert_owners.
    + exact (proj1 (disconnected_owned s c0 c Hnc H)).
Qed.

Definition quiet (w : world) (sn : N) : Prop :=
  sess_open w sn = false \/ exists s, lookup_n sn (w_sess w) = Some s /\ ss_claims s = None.

Definition WInv (w : world) : Prop := w_auth_required w = true -> forall sn, quiet w sn -> ~ owned (w_core w) (cid_of sn).

Lemma WInv_init auth : WInv (world_init auth).
Proof. intros _ sn _ H. exact H. Qed.

Lemma quiet_update w w' sn s' sn' : quiet w' sn' -> sn' <> sn -> w_sess w' = update_n sn s' (w_sess w) -> quiet w sn'.
Proof. unfold quiet, sess_open. intros Hq Hne E. now rewrite E, (lookup_update_other sn sn' s' _ Hne) in Hq. Qed.

Lemma quiet_at w sn s : quiet w sn -> lookup_n sn (w_sess w) = Some s -> ss_open s = false \/ ss_claims s = None.
Proof. unfold quiet, sess_open. intros Hq E. rewrite E in Hq. destruct Hq as [H|(s' & [= <-] & H)]; auto. Qed.

Lemma close_WInv w sn s :
  WInv w -> lookup_n sn (w_sess w) = Some s -> ss_open s = true ->
  is_crash (snd (step (w_core w) (ODisconnected (cid_of sn)))) = false ->
  WInv (fst (close_session w sn)).
Proof.
  intros HW Hl Hop Hnc. rewrite (close_session_open w sn s Hl Hop). intros Ha sn' Hq Ho. cbn [fst w_core w_auth_required] in Ho, Ha.
  destruct (disconnected_owned _ _ _ Hnc Ho) as [H Hne]. apply (HW Ha sn'); [|exact H].
  refine (quiet_update w _ sn _ sn' Hq _ eq_refl). intros ->. now apply Hne.
Qed.

(* the events a world can see: a connection is opened under a session number that is not in use *)
Definition wf_ev (w : world) (e : sevent) : Prop := match e with SOpen sn => sess_open w sn = false | _ => True end.
Definition ev_safe (w : world) (e : sevent) : Prop := forall o, core_op w e = Some o -> is_crash (snd (step (w_core w) o)) = false.

Definition creating (m : cmsg) : bool :=
  match m with MSubscribe _ _ _ _ | MPSubscribe _ _ _ _ _ | MSubscribeLs _ _ | MSPubInit _ _ => true | _ => false end.

Lemma creates_of_msg c m o c' : op_of c m = Some o -> creates o c' -> c' = c /\ creating m = true /\ exists p pat, auth_requirement m = Some (p, pat).
Proof.
  destruct m; cbn [op_of]; intros [= <-]; cbn [creates]; try contradiction; intros <-; (split; [reflexivity|]); (split; [reflexivity|]); cbn [auth_requirement]; eauto.
Qed.

Theorem sstep_WInv w e : WInv w -> wf_ev w e -> ev_safe w e -> WInv (fst (sstep w e)).
Proof.
  intros HW. unfold ev_safe.
  destruct (sstep_effect w e) as [e|e sn s s' Hl Hop' Hcl|sn s m o Hl Hop Hd Ho|e sn s Hl Hop|sn]; intros Hwf Hsafe.
  - exact HW.
  - (* the sender's record changes: it stays open, and has claims unless it had none *)
    intros Ha sn' Hq. cbn [w_core w_auth_required] in *. apply (HW Ha).
    destruct (N.eq_dec sn' sn) as [->|Hne]; [|exact (quiet_update w _ sn _ sn' Hq Hne eq_refl)].
    right. exists s. split; [exact Hl|]. destruct (quiet_at _ sn s' Hq (lookup_update_same sn s' _)); [congruence|auto].
  - (* only the four creating kinds can add an entry, and under authorization they are served to a session with a token;
       the session table is as before, so [quiet] means the same in both worlds *)
    intros Ha sn' Hq Hown. cbn [after_request w_core w_auth_required] in Hown, Ha.
    destruct (step_owned (w_core w) o (cid_of sn') (Hsafe o eq_refl) Hown) as [H|Hcr]; [exact (HW Ha sn' Hq H)|].
    destruct (creates_of_msg _ m o _ Ho Hcr) as (E & _ & p & pat & Hreq). apply cid_of_inj in E. subst sn'.
    destruct (quiet_at _ sn s Hq Hl) as [Hq'|Hq']; [congruence|].
    rewrite (denied_tokenless w s m Ha Hq'), Hreq in Hd. discriminate.
  - exact (close_WInv w sn s HW Hl Hop (Hsafe _ eq_refl)).
  - rewrite open_session_eq. intros Ha sn' Hq Hown. cbn [fst w_core w_auth_required] in Hown, Ha.
    destruct (step_owned _ _ _ (Hsafe _ eq_refl) Hown) as [H|[]]. apply (HW Ha sn'); [|exact H].
    destruct (N.eq_dec sn' sn) as [->|Hne]; [left; exact Hwf|exact (quiet_update w _ sn _ sn' Hq Hne eq_refl)].
Qed.

Lemma assoc_get_owner {V} (k : N * N) (l : list ((N * N) * V)) v :
  assoc_get id_eqb k l = Some v -> In (fst k) (map (fun e => fst (fst e)) l).
Proof.
  induction l as [|[k' v'] l IH]; [discriminate|]. cbn [assoc_get map fst In].
  destruct (id_eqb k k') eqn:E; [|intros H; right; now apply IH].
  intros _. left. unfold id_eqb in E. apply andb_prop in E as [E _]. now apply N.eqb_eq in E.
Qed.

Lemma unchecked_finds_nothing s c m o :
  ~ owned s c -> auth_requirement m = None -> op_of c m = Some o -> exists code, step s o = (s, out_res (RErr code)).
Proof.
  rewrite owned_iff. intros Hno Hreq Hop. destruct m; try discriminate; injection Hop as <-; cbn [step].
  (* each of the three looks its id up in one of the tables, and a hit would make the client an owner *)
  all: unfold do_spub, do_unsubscribe, do_unsubscribe_ls; destruct (assoc_get _ _ _) eqn:E; [|eauto].
  all: apply assoc_get_owner in E; elim Hno; auto.
Qed.

(* [SAck 0] is the Ack of a protocol switch, the one thing such a session is granted *)
Definition is_refusal (x : smsg) : Prop := match x with SErr _ _ _ => True | SAck 0 => True | _ => False end.

Theorem tokenless_no_effect w sn s m :
  WInv w -> w_auth_required w = true -> lookup_n sn (w_sess w) = Some s -> ss_claims s = None ->
  let '(w1, out, v) := handle w sn m in
  w_core w1 = w_core w /\ Forall (fun x => fst x = sn /\ is_refusal (snd x)) out.
Proof.
  intros HW Ha Hl Hcl.
  assert (Hno : ~ owned (w_core w) (cid_of sn)) by (apply (HW Ha); right; eauto).
  destruct (is_request m) eqn:Er.
  - rewrite (handle_request w sn m s Hl Er). unfold on_request. rewrite (denied_tokenless w s m Ha Hcl).
    destruct (not_impl s m); [split; [reflexivity|repeat constructor]|].
    destruct (auth_requirement m) as [[p pat]|] eqn:Hreq; [split; [reflexivity|constructor]|].
    destruct (op_of (cid_of sn) m) as [o|] eqn:Eop; [|rewrite (serve_none w sn m Eop); split; [reflexivity|constructor]].
    destruct (unchecked_finds_nothing _ _ m o Hno Hreq Eop) as (code & Es).
    rewrite (serve_some w sn m o Eop), Es. cbn [fst snd after_request w_core o_res out_res answer map].
    split; [reflexivity|]. destruct (is_subscribe m); repeat constructor.
  - rewrite handle_eq, Hl. destruct m; try discriminate Er; cbn [handle_open].
    + unfold on_switch. destruct (N.leb _ 1); (split; [reflexivity|repeat constructor]).
    + split; [reflexivity|constructor].
Qed.

Lemma sstep_auth w e : w_auth_required (fst (sstep w e)) = w_auth_required w.
Proof.
  destruct (sstep_effect w e) as [e|e sn s s' _ _ _|sn s m o _ _ _ _|e sn s Hl Ho|sn]; try reflexivity.
  - now rewrite (close_session_open w sn s Hl Ho).
  - now rewrite open_session_eq.
Qed.

Fixpoint wf_hist (w : world) (es : list sevent) : Prop :=
  match es with [] => True | e :: r => wf_ev w e /\ wf_hist (fst (sstep w e)) r end.

Lemma ops_of_safe w e : ev_ok e -> Forall safe_op (ops_of w e).
Proof. intros He. apply ops_of_all. intros o. now apply core_op_safe. Qed.

Lemma ev_ok_safe w e :
  Inv (w_core w) -> LH (w_core w) -> ev_ok e ->
  ev_safe w e /\ Inv (w_core (fst (sstep w e))) /\ LH (w_core (fst (sstep w e))).
Proof. intros HI HLH He. rewrite sstep_core. exact (run_opt_safe (w_core w) (core_op w e) HI HLH (fun o => core_op_safe w e o He)). Qed.

Theorem reach_WInv es : forall w,
  Inv (w_core w) -> LH (w_core w) -> WInv w -> Forall ev_ok es -> wf_hist w es ->
  WInv (wfinal w es) /\ w_auth_required (wfinal w es) = w_auth_required w.
Proof.
  induction es as [|e es IH]; intros w HI HLH HW Hev Hwf; [split; [assumption|reflexivity]|].
  apply Forall_cons_iff in Hev as (He & Hes). destruct Hwf as (Hw1 & Hwf).
  destruct (ev_ok_safe w e HI HLH He) as (Hsafe & HI' & HLH').
  destruct (IH _ HI' HLH' (sstep_WInv w e HW Hw1 Hsafe) Hes Hwf) as (H1 & H2).
  split; [exact H1|]. now rewrite <- (sstep_auth w e).
Qed.

(* C15 after any history of events, the three request kinds the authorization table does not check included; the
   hypothesis [ss_open s = true] is not needed: [handle] does not look at it, [sstep] does before it calls [handle] *)
Theorem no_token_no_service es sn s m :
  Forall ev_ok es -> wf_hist (world_init true) es ->
  let w := wfinal (world_init true) es in
  lookup_n sn (w_sess w) = Some s -> ss_open s = true -> ss_claims s = None ->
  let '(w1, out, v) := handle w sn m in
  w_core w1 = w_core w /\ Forall (fun x => fst x = sn /\ is_refusal (snd x)) out.
Proof.
  intros Hev Hwf w Hl _ Hcl.
  destruct (reach_WInv es (world_init true) Inv_init LH_init (WInv_init true) Hev Hwf) as (HW & Ha). fold w in HW, Ha.
  exact (tokenless_no_effect w sn s m HW Ha Hl Hcl).
Qed.

Example no_token_demo :
  let all := Claims [[35]] [[35]] [[35]] in
  let es := [SOpen 0; SOpen 1; SAuth 1 (Some all); SMsg 1 (MSubscribe 1 [97] false None); SMsg 1 (MSet 2 [97] JNull); SMsg 0 (MUnsubscribe 1)] in
  (Forall ev_ok es /\ wf_hist (world_init true) es) /\
  let w := wfinal (world_init true) es in
  (exists s, lookup_n 0 (w_sess w) = Some s /\ ss_open s = true /\ ss_claims s = None) /\
  snd (fst (handle w 0 (MSPub 1 JNull))) = [(0, SErr 1 E_NoPubStream [])] /\
  snd (fst (handle w 0 (MUnsubscribe 1))) = [(0, SErr 1 E_NotSubscribed [])] /\
  snd (handle w 0 (MGet 3 [97])) = Close /\
  snd (fst (handle w 1 (MGet 3 [97]))) = [(1, SState 3 (SValue JNull))].
Proof.
  split; [split; [repeat constructor|vm_compute; repeat split; reflexivity]|].
  vm_compute. repeat split; try reflexivity. eexists. repeat split; reflexivity.
Qed.
