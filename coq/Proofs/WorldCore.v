(* The session layer runs the core one request at a time: every event of a world (a line on a socket, a connection
   opening or closing) runs at most one core request, [core_op], and the core of the world afterwards is the core after
   that request.  So what is proved of histories of core requests holds of histories of events: no crash (C17), and
   with C06_confirm_once a waiting acquire is resolved at most once, granted or cancelled, never both (WorldLocks.v).
   What an event puts on the wires is not described here: [handle] sends the routed traffic of the request along with
   its answer by definition. *)
From Coq Require Import Lia List.
Import ListNotations.
From WB Require Import Base.Str Model.Entry Model.Core Model.Codec Model.Auth Model.Session Proofs.CoreFacts
  Proofs.SessionFacts Proofs.LockHistory Proofs.NoCrash.
Local Open Scope N_scope.

Definition core_op (w : world) (e : sevent) : option op :=
  match e with
  | SOpen sn => Some (OConnected (cid_of sn))
  | SClose sn => match lookup_n sn (w_sess w) with Some s => if ss_open s then Some (ODisconnected (cid_of sn)) else None | None => None end
  | SGarbage sn => if sess_open w sn then Some (ODisconnected (cid_of sn)) else None
  | SAuth sn cl =>
      if sess_open w sn then
        match lookup_n sn (w_sess w) with
        | Some s => match ss_claims s, cl with None, Some _ => None | _, _ => Some (ODisconnected (cid_of sn)) end
        | None => None
        end
      else None
  | SMsg sn m =>
      if sess_open w sn then
        match lookup_n sn (w_sess w) with
        | None => None
        | Some s =>
            match m with
            | MProtocolSwitchRequest v => if N.leb v 1 then None else Some (ODisconnected (cid_of sn))
            | MAuthorizationRequest _ => Some (ODisconnected (cid_of sn))
            | _ =>
                if (N.eqb (ss_proto s) 0 && v1_only m) || (match m with MTransform _ _ _ => true | _ => false end) then None
                else
                  let denied :=
                    if w_auth_required w then
                      match auth_requirement m with
                      | None => Some false
                      | Some (p, pat) => match ss_claims s with None => None | Some cl => Some (negb (authorize cl p pat)) end
                      end
                    else Some false in
                  match denied with
                  | None => Some (ODisconnected (cid_of sn))
                  | Some true => None
                  | Some false => op_of (cid_of sn) m
                  end
            end
        end
      else None
  end.

Definition ops_of (w : world) (e : sevent) : list op := match core_op w e with Some o => [o] | None => [] end.

(* [core_op] spells the handler's tests out in full, as [handle] does; this is the bridge to [not_impl] and [denied],
   through which everything below reads them *)
Lemma core_op_request w sn m s :
  sess_open w sn = true -> lookup_n sn (w_sess w) = Some s -> is_request m = true ->
  core_op w (SMsg sn m) =
  if not_impl s m then None
  else match denied w s m with
       | None => Some (ODisconnected (cid_of sn))
       | Some true => None
       | Some false => op_of (cid_of sn) m
       end.
Proof. intros Eo Hl Hr. destruct m; try discriminate Hr; cbn [core_op]; rewrite Eo, Hl; reflexivity. Qed.

(* Every fact about one step of the world is read off these five cases.  [Eff_sess] is a protocol switch or an
   accepted token; its third premise -- a session without a token after the step had none before it -- is what the
   invariant of WorldAuth.v needs there. *)
Inductive effect (w : world) : sevent -> option op -> world -> Prop :=
| Eff_none e : effect w e None w
| Eff_sess e sn s s' :
    lookup_n sn (w_sess w) = Some s -> ss_open s' = true -> (ss_claims s' = None -> ss_claims s = None) ->
    effect w e None (World (w_core w) (w_auth_required w) (update_n sn s' (w_sess w)) (w_chan w) (w_reqs w))
| Eff_serve sn s m o :
    lookup_n sn (w_sess w) = Some s -> ss_open s = true -> denied w s m = Some false -> op_of (cid_of sn) m = Some o ->
    effect w (SMsg sn m) (Some o) (after_request w sn m (step (w_core w) o))
| Eff_close e sn s :
    lookup_n sn (w_sess w) = Some s -> ss_open s = true ->
    effect w e (Some (ODisconnected (cid_of sn))) (fst (close_session w sn))
| Eff_open sn : effect w (SOpen sn) (Some (OConnected (cid_of sn))) (fst (open_session w sn)).

Lemma sstep_effect w e : effect w e (core_op w e) (fst (sstep w e)).
Proof.
  destruct e as [sn|sn m|sn cl|sn|sn].
  - apply Eff_open.
  - rewrite sstep_msg. destruct (sess_open w sn) eqn:Eo; [|cbn [core_op]; rewrite Eo; apply Eff_none].
    destruct (sess_open_lookup w sn Eo) as (s & Hl & Ho).
    destruct (is_request m) eqn:Er.
    + rewrite (core_op_request w sn m s Eo Hl Er), (handle_request w sn m s Hl Er). unfold on_request.
      destruct (not_impl s m); [apply Eff_none|].
      destruct (denied w s m) as [[|]|] eqn:Ed; [apply Eff_none| |exact (Eff_close w _ sn s Hl Ho)].
      destruct (op_of (cid_of sn) m) as [o|] eqn:Eop; [|rewrite (serve_none w sn m Eop); apply Eff_none].
      rewrite (serve_some w sn m o Eop). exact (Eff_serve w sn s m o Hl Ho Ed Eop).
    + rewrite handle_eq, Hl. destruct m; try discriminate Er; cbn [core_op handle_open]; rewrite Eo, Hl.
      * unfold on_switch. destruct (N.leb _ 1); [|exact (Eff_close w _ sn s Hl Ho)].
        exact (Eff_sess w _ sn s (Sess true _ (ss_claims s)) Hl eq_refl (fun H => H)).
      * exact (Eff_close w _ sn s Hl Ho).
  - rewrite sstep_auth_ev. cbn [core_op]. destruct (sess_open w sn) eqn:Eo; [|apply Eff_none].
    destruct (sess_open_lookup w sn Eo) as (s & Hl & Ho). unfold authorize_session. rewrite Hl.
    destruct (ss_claims s) as [c0|]; [exact (Eff_close w _ sn s Hl Ho)|].
    destruct cl as [c1|]; [|exact (Eff_close w _ sn s Hl Ho)].
    refine (Eff_sess w _ sn s (Sess true (ss_proto s) (Some c1)) Hl eq_refl _). discriminate.
  - cbn [sstep core_op]. destruct (sess_open w sn) eqn:Eo; [|apply Eff_none].
    destruct (sess_open_lookup w sn Eo) as (s & Hl & Ho). exact (Eff_close w _ sn s Hl Ho).
  - cbn [sstep core_op]. destruct (sess_open w sn) eqn:Eo.
    + destruct (sess_open_lookup w sn Eo) as (s & Hl & Ho). rewrite Hl, Ho. exact (Eff_close w _ sn s Hl Ho).
    + rewrite (close_session_closed w sn Eo). unfold sess_open in Eo.
      destruct (lookup_n sn (w_sess w)) as [s|]; [rewrite Eo|]; apply Eff_none.
Qed.

Theorem sstep_core w e : w_core (fst (sstep w e)) = final (w_core w) (ops_of w e).
Proof.
  unfold ops_of. destruct (sstep_effect w e) as [e|e sn s s' _ _ _|sn s m o _ _ _ _|e sn s Hl Ho|sn]; try reflexivity.
  - now rewrite (close_session_open w sn s Hl Ho).
  - now rewrite open_session_eq.
Qed.

Definition wfinal (w : world) (es : list sevent) : world := fold_left (fun w e => fst (sstep w e)) es w.
Fixpoint ops_hist (w : world) (es : list sevent) : list op :=
  match es with [] => [] | e :: r => ops_of w e ++ ops_hist (fst (sstep w e)) r end.

Theorem world_core es : forall w, w_core (wfinal w es) = final (w_core w) (ops_hist w es).
Proof.
  induction es as [|e es IH]; intros w; [reflexivity|]. cbn [wfinal fold_left ops_hist]. fold (wfinal (fst (sstep w e)) es).
  rewrite IH, sstep_core. unfold final. now rewrite fold_left_app.
Qed.

Lemma ops_of_all (P : op -> Prop) w e : (forall o, core_op w e = Some o -> P o) -> Forall P (ops_of w e).
Proof. unfold ops_of. intros H. destruct (core_op w e) as [o|]; constructor; [now apply H|constructor]. Qed.

Lemma ops_hist_all (P : op -> Prop) (Q : sevent -> Prop) :
  (forall w e o, Q e -> core_op w e = Some o -> P o) -> forall es w, Forall Q es -> Forall P (ops_hist w es).
Proof.
  intros H. induction es as [|e es IH]; intros w Hes; [constructor|]. apply Forall_cons_iff in Hes as (He & Hes).
  cbn [ops_hist]. apply Forall_app. split; [|now apply IH]. apply ops_of_all. intros o. now apply H.
Qed.

(* 0 is INTERNAL_CLIENT_ID, which no session has; no line of the protocol is an import *)
Definition session_op (o : op) : Prop :=
  match o with
  | OConnected c | ODisconnected c => c <> 0
  | OImport _ => False
  | _ => True
  end.

Lemma cid_of_nonzero sn : cid_of sn <> 0.
Proof. unfold cid_of. lia. Qed.

Lemma cid_of_inj a b : cid_of a = cid_of b -> a = b.
Proof. unfold cid_of. lia. Qed.

Lemma core_op_shape w e o :
  core_op w e = Some o ->
  (exists sn, o = OConnected (cid_of sn) \/ o = ODisconnected (cid_of sn)) \/
  (exists sn m, e = SMsg sn m /\ op_of (cid_of sn) m = Some o).
Proof.
  destruct (sstep_effect w e) as [e|e sn s s' _ _ _|sn s m o' _ _ _ Hop|e sn s _ _|sn]; intros [= <-]; eauto 6.
Qed.

Lemma core_op_session w e o : core_op w e = Some o -> session_op o.
Proof.
  intros Hc. destruct (core_op_shape w e o Hc) as [(sn & [-> | ->])|(sn & m & _ & Hop)]; try apply cid_of_nonzero.
  revert Hop. destruct m; intros [= <-]; exact I.
Qed.

Theorem ops_hist_session es : forall w, Forall session_op (ops_hist w es).
Proof.
  intros w. apply (ops_hist_all session_op (fun _ => True)); [intros w' e o _; apply core_op_session|].
  apply Forall_forall. intros e _. exact I.
Qed.

Definition ev_ok (e : sevent) : Prop := match e with SMsg _ (MCSet _ _ _ ver) => ver <> u64_max | _ => True end.

Lemma core_op_safe w e o : ev_ok e -> core_op w e = Some o -> safe_op o.
Proof.
  intros Hev Hc. destruct (core_op_shape w e o Hc) as [(sn & [-> | ->])|(sn & m & -> & Hop)];
    try (split; [apply cid_of_nonzero|exact I]).
  (* a cset comes from a cSet message with that version *)
  revert Hop. destruct m; intros [= <-]; split; try exact I. exact Hev.
Qed.

Theorem ops_hist_safe es : forall w, Forall ev_ok es -> Forall safe_op (ops_hist w es).
Proof. exact (ops_hist_all safe_op ev_ok core_op_safe es). Qed.

(* C17 at the level of the sockets: whatever arrives, in whatever order, no core request crashes; [ev_ok] excludes the
   version overflow of F17 *)
Theorem world_never_crashes auth es :
  Forall ev_ok es ->
  nocrash (trace init (ops_hist (world_init auth) es)) /\ Inv (w_core (wfinal (world_init auth) es)).
Proof.
  intros Hev. rewrite world_core. cbn [world_init w_core].
  exact (history_safe _ init Inv_init LH_init (ops_hist_safe es (world_init auth) Hev)).
Qed.
