(* C06 / C13 at the level of the sockets: over any history of events of a world, every waiting acquire is resolved at
   most once -- granted or cancelled, never both, never twice.  The deferred answers among the traffic of a step are
   its last part and at most one message per request id resolved in that step (none where the session has gone); the
   session and transaction they go to are those [handle] filed in w_reqs when the acquire had to wait. *)
From Coq Require Import Lia List PeanoNat.
Import ListNotations.
From WB Require Import Base.Str Model.Core Model.Codec Model.Session Proofs.LockHistory Proofs.Unconditional Proofs.WorldCore.
Local Open Scope N_scope.

Lemma flat_map_le1 {A B} (f : A -> list B) l : (forall x, length (f x) <= 1)%nat -> (length (flat_map f l) <= length l)%nat.
Proof. intros H. induction l as [|x l IH]; [reflexivity|]. cbn [flat_map length]. rewrite app_length. specialize (H x). lia. Qed.

Definition deferred (w : world) (o : output) : list (N * smsg) :=
  flat_map (fun r => match lookup_n r (w_reqs w) with
                     | Some (sn, tid) => if sess_open w sn then [(sn, SAck tid)] else []
                     | None => [] end) (o_granted o) ++
  flat_map (fun r => match lookup_n r (w_reqs w) with
                     | Some (sn, tid) => if sess_open w sn then [(sn, SErr tid E_LockAcquisitionCancelled [])] else []
                     | None => [] end) (o_cancelled o).

Lemma route_events_deferred w o : exists evs, route_events w o = evs ++ deferred w o.
Proof. unfold route_events, deferred. eexists. apply app_assoc. Qed.

Lemma deferred_length w o : (length (deferred w o) <= length (o_granted o ++ o_cancelled o))%nat.
Proof.
  unfold deferred. rewrite !app_length.
  apply Nat.add_le_mono; apply flat_map_le1; intros r;
    (destruct (lookup_n r (w_reqs w)) as [[sn tid]|]; [destruct (sess_open w sn)|]; cbn [length]; lia).
Qed.

(* C06: by the first two conjuncts of [accounted] no acquire is ever answered twice, or both confirmed and cancelled *)
Theorem world_confirm_once auth es :
  Forall ev_ok es ->
  accounted (w_core (wfinal (world_init auth) es)) (resolved (trace init (ops_hist (world_init auth) es))).
Proof.
  intros Hev. rewrite world_core. cbn [world_init w_core].
  exact (confirm_once_safe _ (ops_hist_safe es (world_init auth) Hev)).
Qed.

(* non-vacuity: two clients wait for a lock, the holder releases (the first waiter is confirmed), the second waiter
   leaves (its request is cancelled): two ids, each resolved once *)
Example world_confirm_once_demo :
  let es := [SOpen 0; SOpen 1; SOpen 2; SMsg 0 (MLock 1 [108]); SMsg 1 (MAcquireLock 1 [108]); SMsg 2 (MAcquireLock 1 [108]);
             SMsg 0 (MReleaseLock 2 [108]); SClose 2] in
  resolved (trace init (ops_hist (world_init false) es)) = [0; 1] /\
  snd (sstep (wfinal (world_init false) (firstn 6 es)) (SMsg 0 (MReleaseLock 2 [108]))) = [(1, SAck 1); (0, SAck 2)].
Proof. vm_compute. split; reflexivity. Qed.
