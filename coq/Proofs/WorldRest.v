(* Both front ends at once: events of the socket sessions and REST requests, interleaved in any order, run on the one
   core, one core request at a time -- and none of them crashes it (C17).  A REST request creates no subscription and no
   publish stream, so with REST traffic in between a socket session without a token still owns nothing and is served
   nothing (C15). *)
From Coq Require Import List.
Import ListNotations.
From WB Require Import Base.Str Base.Json Model.Consts Model.Entry Model.Core Model.Codec Model.Auth Model.Session Model.Rest
  Model.RestWorld Proofs.CoreFacts Proofs.C01Proof Proofs.LockHistory Proofs.NoCrash Proofs.WorldCore
  Proofs.WorldAuth.
Local Open Scope N_scope.

Inductive wevent := WS (e : sevent) | WR (tok : rtoken) (r : rreq).

Definition wstep (w : world) (x : wevent) : world * list (N * smsg) :=
  match x with
  | WS e => sstep w e
  | WR tok r => let '(w', out, _) := wrest w tok r in (w', out)
  end.

Definition rest_served (w : world) (tok : rtoken) (r : rreq) : bool :=
  if w_auth_required w then
    match tok with
    | TClaims cl => let '(p, pat) := rest_requirement r in authorize cl p pat
    | _ => false
    end
  else true.

Definition wops (w : world) (x : wevent) : list op :=
  match x with
  | WS e => ops_of w e
  | WR tok r => if rest_served w tok r then match rest_op r with Some o => [o] | None => [] end else []
  end.

Definition wop (w : world) (x : wevent) : option op :=
  match x with
  | WS e => core_op w e
  | WR tok r => if rest_served w tok r then rest_op r else None
  end.

Lemma wops_wop w x : wops w x = match wop w x with Some o => [o] | None => [] end.
Proof. destruct x as [e|tok r]; [reflexivity|]. cbn [wops wop]. now destruct (rest_served w tok r). Qed.

Lemma wrest_world w tok r : fst (wstep w (WR tok r)) = set_core w (final (w_core w) (wops w (WR tok r))).
Proof.
  (* first whether the request is served (no authorization, or a token that grants it), then its one request, if it has one *)
  cbn [wstep wops]. unfold wrest, rest_handle, rest_served. destruct (w_auth_required w).
  1: destruct tok as [| |cl]; try reflexivity.
  1: destruct (rest_requirement r) as [p pat]; destruct (authorize cl p pat); [|reflexivity].
  all: destruct (rest_op r) as [o|]; [|reflexivity].
  all: cbn [final fold_left]; now destruct (step (w_core w) o).
Qed.

Theorem wstep_core w x : w_core (fst (wstep w x)) = final (w_core w) (wops w x).
Proof. destruct x as [e|tok r]; [apply sstep_core|]. now rewrite wrest_world. Qed.

Definition wfinal' (w : world) (xs : list wevent) : world := fold_left (fun w x => fst (wstep w x)) xs w.
Fixpoint wops_hist (w : world) (xs : list wevent) : list op :=
  match xs with [] => [] | x :: r => wops w x ++ wops_hist (fst (wstep w x)) r end.

Theorem mixed_core xs : forall w, w_core (wfinal' w xs) = final (w_core w) (wops_hist w xs).
Proof.
  induction xs as [|x xs IH]; intros w; [reflexivity|]. cbn [wfinal' fold_left wops_hist]. fold (wfinal' (fst (wstep w x)) xs).
  rewrite IH, wstep_core. unfold final. now rewrite fold_left_app.
Qed.

(* what may arrive: a cSet does not name the version u64::MAX (F17); an imported tree has distinct, regular names *)
Definition wev_ok (x : wevent) : Prop :=
  match x with
  | WS e => ev_ok e
  | WR _ (RImport j) => import_ok (OImport j)
  | WR _ _ => True
  end.

Lemma wop_safe w x o : wev_ok x -> wop w x = Some o -> safe_op o.
Proof.
  destruct x as [e|tok r]; cbn [wev_ok wop]; intros H; [now apply core_op_safe|].
  destruct (rest_served w tok r); [|discriminate]. destruct r; intros [= <-]; split; try exact I; try discriminate. exact H.
Qed.

Lemma wops_safe w x : wev_ok x -> Forall safe_op (wops w x).
Proof. intros H. rewrite wops_wop. destruct (wop w x) as [o|] eqn:E; constructor; [exact (wop_safe w x o H E)|constructor]. Qed.

Lemma wops_hist_safe xs : forall w, Forall wev_ok xs -> Forall safe_op (wops_hist w xs).
Proof.
  induction xs as [|x xs IH]; intros w Hev; [constructor|]. apply Forall_cons_iff in Hev as (Hx & Hxs).
  cbn [wops_hist]. apply Forall_app. split; [now apply wops_safe|now apply IH].
Qed.

(* C17 with both front ends *)
Theorem mixed_never_crashes auth xs :
  Forall wev_ok xs ->
  nocrash (trace init (wops_hist (world_init auth) xs)) /\ Inv (w_core (wfinal' (world_init auth) xs)).
Proof.
  intros Hev. rewrite mixed_core. cbn [world_init w_core].
  exact (history_safe _ init Inv_init LH_init (wops_hist_safe xs (world_init auth) Hev)).
Qed.

Example mixed_demo :
  let xs := [WS (SOpen 0); WS (SMsg 0 (MSubscribe 1 [97] false None)); WR TNone (RSet [97] (JNum [49])); WR TNone (RPDelete [35]);
             WS (SGarbage 0); WR TNone (RImport (JObj [(s_data, JObj [(s_t, JObj [([98], JObj [(s_v, JNull)])])])])); WR TNone RExport] in
  Forall wev_ok xs /\
  wops_hist (world_init false) xs = [OConnected 1; OSubscribe 1 1 [97] false false; OSet 254 [97] (JNum [49]) false; OPDelete 254 [35]; ODisconnected 1;
                                     OImport (JObj [(s_data, JObj [(s_t, JObj [([98], JObj [(s_v, JNull)])])])])] /\
  snd (wstep (wfinal' (world_init false) (firstn 2 xs)) (WR TNone (RSet [97] (JNum [49])))) = [(0, SState 1 (SValue (JNum [49])))].
Proof.
  split; [|vm_compute; split; reflexivity].
  repeat constructor; try exact I.
  all: match goal with H : dec_persisted _ = Some _ |- _ => vm_compute in H; injection H as <- end.
  all: cbn; repeat split; try exact I; repeat constructor; try (intros []); try discriminate.
  all: try match goal with H : In _ [] |- _ => destruct H end.
Qed.

Lemma rest_op_creates r o c : rest_op r = Some o -> ~ creates o c.
Proof. destruct r; cbn [rest_op]; intros [= <-]; cbn [creates]; exact (fun H => H). Qed.

Definition wwf (w : world) (x : wevent) : Prop := match x with WS e => wf_ev w e | WR _ _ => True end.
Fixpoint wwf_hist (w : world) (xs : list wevent) : Prop :=
  match xs with [] => True | x :: r => wwf w x /\ wwf_hist (fst (wstep w x)) r end.

Lemma wstep_WInv w x :
  WInv w -> wwf w x -> (forall o, wop w x = Some o -> is_crash (snd (step (w_core w) o)) = false) -> WInv (fst (wstep w x)).
Proof.
  intros HW Hwf Hsafe. destruct x as [e|tok r]; [exact (sstep_WInv w e HW Hwf Hsafe)|].
  rewrite wrest_world, wops_wop. destruct (wop w (WR tok r)) as [o|] eqn:E; [|exact HW].
  intros Ha sn Hq Ho. cbn [final fold_left set_core w_core] in Ho.
  destruct (step_owned _ o _ (Hsafe o eq_refl) Ho) as [H|Hc]; [exact (HW Ha sn Hq H)|].
  cbn [wop] in E. destruct (rest_served w tok r); [|discriminate]. exact (rest_op_creates r o _ E Hc).
Qed.

Lemma wstep_auth w x : w_auth_required (fst (wstep w x)) = w_auth_required w.
Proof. destruct x as [e|tok r]; [apply sstep_auth|]. now rewrite wrest_world. Qed.

Lemma wev_ok_safe w x :
  Inv (w_core w) -> LH (w_core w) -> wev_ok x ->
  (forall o, wop w x = Some o -> is_crash (snd (step (w_core w) o)) = false) /\
  Inv (w_core (fst (wstep w x))) /\ LH (w_core (fst (wstep w x))).
Proof. intros HI HLH Hx. rewrite wstep_core, wops_wop. exact (run_opt_safe (w_core w) (wop w x) HI HLH (fun o => wop_safe w x o Hx)). Qed.

Theorem mixed_reach_WInv xs : forall w,
  Inv (w_core w) -> LH (w_core w) -> WInv w -> Forall wev_ok xs -> wwf_hist w xs ->
  WInv (wfinal' w xs) /\ w_auth_required (wfinal' w xs) = w_auth_required w.
Proof.
  induction xs as [|x xs IH]; intros w HI HLH HW Hev Hwf; [split; [assumption|reflexivity]|].
  apply Forall_cons_iff in Hev as (Hx & Hxs). destruct Hwf as (Hw1 & Hwf).
  destruct (wev_ok_safe w x HI HLH Hx) as (Hsafe & HI' & HLH').
  destruct (IH _ HI' HLH' (wstep_WInv w x HW Hw1 Hsafe) Hxs Hwf) as (H1 & H2).
  split; [exact H1|]. now rewrite <- (wstep_auth w x).
Qed.

(* C15 after any history of socket events and REST requests *)
Theorem mixed_no_token_no_service xs sn s m :
  Forall wev_ok xs -> wwf_hist (world_init true) xs ->
  let w := wfinal' (world_init true) xs in
  lookup_n sn (w_sess w) = Some s -> ss_open s = true -> ss_claims s = None ->
  let '(w1, out, v) := handle w sn m in
  w_core w1 = w_core w /\ Forall (fun x => fst x = sn /\ is_refusal (snd x)) out.
Proof.
  intros Hev Hwf w Hl _ Hcl.
  destruct (mixed_reach_WInv xs (world_init true) Inv_init LH_init (WInv_init true) Hev Hwf) as (HW & Ha). fold w in HW, Ha.
  exact (tokenless_no_effect w sn s m HW Ha Hl Hcl).
Qed.
