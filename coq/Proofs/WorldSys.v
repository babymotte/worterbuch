(* C08 at the level of the sockets and the REST front end.  Whatever arrives, in whatever order -- lines of every kind on any
   number of sessions, connections opening and closing (with their grave goods and last wills), REST requests of every
   kind -- a value the server keeps under $SYS outside the per-client bookkeeping ($SYS/clients and below) reads afterwards
   as before, as long as no pattern with a wildcard in its first segment is involved (known finding F4). *)
From Coq Require Import List.
Import ListNotations.
From WB Require Import Base.Str Base.StrFacts Base.Json Model.Consts Model.Core Model.Codec Model.Session Model.Rest
  Proofs.GoodNames Proofs.CoreFacts Proofs.LenFacts Proofs.C01Proof Proofs.LockHistory Proofs.SessionEnd Proofs.StreamAll
  Proofs.SysKeep Proofs.WorldCore Proofs.WorldRest.
Local Open Scope N_scope.

Definition server_info (q : list str) : Prop := match q with x :: _ => x <> s_clients | [] => False end.

Lemma server_info_not_own c q : server_info q -> ~ own_entry c q.
Proof. intros H (p3 & more & -> & _). now apply H. Qed.

(* no wildcard in the first segment: of the request's pattern, and of the grave goods that a session end buries *)
Definition lit_op (s : core) (o : op) : Prop :=
  match o with
  | OPDelete _ pat => literal_first pat
  | ODisconnected c => Forall literal_first (gg_of s c)
  | _ => True
  end.

Lemma connected_keeps_info s c q :
  Inv s -> server_info q -> is_crash (snd (do_connected s c)) = false ->
  abs (fst (do_connected s c)) (s_SYS :: q) = abs s (s_SYS :: q).
Proof.
  intros HI Hq Hnc.
  destruct (expand_runs s (OConnected c) Hnc) as (F & _ & _ & Nc). cbn [step] in F. rewrite F. cbn [expand] in *.
  destruct (N.eqb c 0 || existsb (N.eqb c) (clients s))%bool; cbn [fst snd] in *; [reflexivity|].
  change (abs s (s_SYS :: q)) with (abs (conn_prep s c) (s_SYS :: q)).
  apply leaves_run; try assumption.
  unfold conn_ops. destruct q as [|x q']; [contradiction|]. cbn [server_info] in Hq.
  repeat (apply Forall_cons; [cbn [leaves]; intros Hp; apply parse_segments_good in Hp as (Hp & _)|]); [| | |apply Forall_nil].
  1: rewrite (split_sys_topic []) in Hp by constructor.
  2-3: rewrite split_client_topic in Hp by now apply no_sep_forallb.
  all: injection Hp as Hp _; now elim Hq.
Qed.

(* one core request of a session or of the REST front end: never under the server's own id *)
Definition no_internal (o : op) : Prop :=
  match o with
  | OSet c _ _ _ | OCSet c _ _ _ _ | ODelete c _ | OPDelete c _ | OConnected c | ODisconnected c => c <> 0
  | _ => True
  end.

Theorem op_keeps_info s o q :
  Inv s -> no_internal o -> import_ok o -> lit_op s o -> server_info q ->
  is_crash (snd (step s o)) = false ->
  abs (fst (step s o)) (s_SYS :: q) = abs s (s_SYS :: q).
Proof.
  intros HI Hni Himp Hlit Hq Hnc.
  assert (Hcl : forall c, c <> 0 -> client_req c o -> abs (fst (step s o)) (s_SYS :: q) = abs s (s_SYS :: q)).
  { intros c Hc Hreq. apply (client_keeps_sys s c o q HI Hc Hreq). now apply server_info_not_own. }
  (* a request that names no client is a [client_req] of every client: client 1 will do *)
  destruct o; cbn [no_internal lit_op] in *; try exact (Hcl 1 ltac:(discriminate) I).
  1-3: exact (Hcl c Hni eq_refl).   (* set, cset, delete *)
  - (* pdelete *) exact (Hcl c Hni (conj eq_refl Hlit)).
  - (* import *) exact (Hcl 1 ltac:(discriminate) Himp).
  - (* connected *) cbn [step] in *. now apply connected_keeps_info.
  - (* disconnected *) cbn [step] in *. destruct q as [|x q']; [contradiction|]. cbn [server_info] in Hq.
    apply disconnected_keeps_sys; try assumption; [intros [= E _]|intros r [= E _]]; contradiction.
Qed.

Lemma core_op_no_internal w e o : core_op w e = Some o -> no_internal o.
Proof.
  intros Hc. destruct (core_op_shape w e o Hc) as [(sn & [-> | ->])|(sn & m & _ & Ho)]; cbn [no_internal]; try apply cid_of_nonzero.
  revert Ho. destruct m; intros [= <-]; cbn [no_internal]; try exact I; apply cid_of_nonzero.
Qed.

Lemma wop_no_internal w x o : wop w x = Some o -> no_internal o.
Proof.
  destruct x as [e|tok r]; cbn [wop]; [apply core_op_no_internal|].
  destruct (rest_served w tok r); [|discriminate]. destruct r; intros [= <-]; cbn [no_internal]; try exact I; discriminate.
Qed.

Fixpoint lit_hist (w : world) (xs : list wevent) : Prop :=
  match xs with [] => True | x :: r => Forall (lit_op (w_core w)) (wops w x) /\ lit_hist (fst (wstep w x)) r end.

(* the hypothesis [LenInv (w_core w)] is not needed: the proof does not use it *)
Theorem mixed_keeps_info xs : forall w q,
  Inv (w_core w) -> LenInv (w_core w) -> LH (w_core w) -> Forall wev_ok xs -> lit_hist w xs -> server_info q ->
  abs (w_core (wfinal' w xs)) (s_SYS :: q) = abs (w_core w) (s_SYS :: q).
Proof.
  intros w q HI _ HLH Hev Hlit Hq. revert w HI HLH Hlit.
  induction xs as [|x xs IH]; intros w HI HLH Hlit; [reflexivity|].
  apply Forall_cons_iff in Hev as (Hx & Hxs). destruct Hlit as (Hl1 & Hlit).
  cbn [wfinal' fold_left]. fold (wfinal' (fst (wstep w x)) xs).
  destruct (wev_ok_safe w x HI HLH Hx) as (Hnc & HI' & HLH').
  rewrite (IH Hxs _ HI' HLH' Hlit), wstep_core. rewrite wops_wop in Hl1 |- *. destruct (wop w x) as [o|] eqn:Eo; [|reflexivity].
  apply Forall_cons_iff in Hl1 as (Hl1 & _).
  exact (op_keeps_info (w_core w) o q HI (wop_no_internal w x o Eo) (proj2 (wop_safe w x o Hx Eo)) Hl1 Hq (Hnc o eq_refl)).
Qed.

(* From [world_init], whose store is empty: stats.rs writes $SYS/version and the like under INTERNAL_CLIENT_ID, which is
   no event of a world.  So no client gets a value in there. *)
Theorem server_info_is_the_servers auth xs q :
  Forall wev_ok xs -> lit_hist (world_init auth) xs -> server_info q ->
  abs (w_core (wfinal' (world_init auth) xs)) (s_SYS :: q) = None.
Proof.
  intros Hev Hlit Hq. rewrite (mixed_keeps_info xs (world_init auth) q Inv_init eq_refl LH_init Hev Hlit Hq). apply abs_init.
Qed.

Example mixed_info_demo :
  let xs := [WS (SOpen 0); WS (SMsg 0 (MSet 1 [36;83;89;83;47;118] JNull)); WR TNone (RSet [36;83;89;83;47;118] (JNum [49]));
             WR TNone (RPDelete [36;83;89;83;47;35]); WS (SMsg 0 (MSet 2 (topic [s_SYS; s_clients; client_str 1; s_graveGoods]) (JArr [JStr [97;47;35]])));
             WS (SClose 0)] in
  (Forall wev_ok xs /\ lit_hist (world_init false) xs) /\ server_info [[118]].
Proof.
  split; [split|discriminate].
  - repeat constructor.
  - (* lit_op stays folded: as a function of the request it would be evaluated with gg_of unfolded over the whole state *)
    lazy -[lit_op]. repeat split; repeat constructor.
Qed.
