(* The writes of Model/Core.v as functions on maps.  Every write is a function of the map alone, sitting behind
   the read-only guard: set, cset and delete address the one path their key names and decide from what is stored there
   ([point_write]); a pattern delete removes what its pattern matches ([pdel_write]); an import merges.  [step_write]
   says that this is what an answered request does to [abs], whatever its answer: the equations of
   CoreFacts.do_insert_effect & co. without the case analysis on the answer. *)
From Coq Require Import List.
Import ListNotations.
From WB Require Import Base.Str Base.StrFacts Base.Json Model.Key Model.Consts Model.Store Model.Match Model.Entry Model.Core
  Spec.MapSpec Proofs.StoreFacts Proofs.TreeInv Proofs.GoodNames Proofs.CoreFacts Proofs.C01Proof.

Definition m_put (m : mstate) (p : list str) (x : option entry) : mstate := fun q => if path_eqb p q then x else m q.

Definition guarded (c : cid) (k : str) (G : mstate -> mstate) (m : mstate) : mstate :=
  match check_read_only k c with None => G m | Some _ => m end.

(* [u] says, from the current content of the path, what is put there; None: the request is refused *)
Definition point (k : str) (u : option entry -> option (option entry)) (m : mstate) : mstate :=
  match parse_segments k with
  | Ok p => match u (m p) with Some x => m_put m p x | None => m end
  | Err _ => m
  end.
Definition point_write (c : cid) (k : str) u : mstate -> mstate := guarded c k (point k u).
Definition pdel_write (c : cid) (pat : str) : mstate -> mstate := guarded c pat (fun m => m_pdel m (kseg_parse pat)).

Definition ins_upd (k : str) (e : entry) (force : bool) (cur : option entry) : option (option entry) :=
  if special_value_bad k (entry_val e) then None
  else match decide cur e force with DOk _ _ e' => Some (Some e') | _ => None end.
Definition del_upd (_ : option entry) : option (option entry) := Some None.

Lemma point_write_at c k u m q :
  point_write c k u m q = m q \/
  exists x, check_read_only k c = None /\ parse_segments k = Ok q /\ u (m q) = Some x /\ point_write c k u m q = x.
Proof.
  unfold point_write, guarded, point. destruct (check_read_only k c); [now left|].
  destruct (parse_segments k) as [p|]; [|now left]. destruct (u (m p)) as [x|] eqn:E; [|now left].
  unfold m_put. destruct (path_eqb_spec p q) as [->|]; [right; now exists x|now left].
Qed.

Lemma point_write_other c k u m q : parse_segments k <> Ok q -> point_write c k u m q = m q.
Proof. intros Hq. destruct (point_write_at c k u m q) as [E|(x & _ & Hp & _)]; [exact E|contradiction]. Qed.

Lemma pdel_write_at c pat m q :
  pdel_write c pat m q = m q \/
  check_read_only pat c = None /\ store_match (kseg_parse pat) q = true /\ pdel_write c pat m q = None.
Proof.
  unfold pdel_write, guarded, m_pdel. destruct (check_read_only pat c); [now left|].
  destruct (store_match (kseg_parse pat) q); [now right|now left].
Qed.

Lemma ins_upd_Some k e f cur x :
  ins_upd k e f cur = Some x ->
  exists e', x = Some e' /\ entry_val e' = entry_val e /\ special_value_bad k (entry_val e) = false.
Proof.
  unfold ins_upd. destruct (special_value_bad k (entry_val e)); [discriminate|].
  destruct (decide cur e f) as [ex ch e'| |] eqn:Ed; try discriminate. intros [= <-].
  exists e'. split; [reflexivity|]. split; [exact (decide_val _ _ _ _ _ _ Ed)|reflexivity].
Qed.

Lemma same_state s s' : s' = s -> Inv s -> Inv s' /\ meq (abs s') (abs s).
Proof. intros -> HI. split; [exact HI|]. intros q. reflexivity. Qed.

Lemma do_insert_result s c k e f :
  o_res (snd (do_insert s c k e f)) =
  match check_read_only k c with
  | Some code => RErr code
  | None => match parse_segments k with
            | Err code => RErr code
            | Ok p => if special_value_bad k (entry_val e) then RErr E_IoError
                      else match decide (abs s p) e f with DOk _ _ _ => RUnit | DErr code => RErr code | DCrash => RCrash end
            end
  end.
Proof.
  unfold do_insert, abs. destruct (check_read_only k c); [reflexivity|]. destruct (parse_segments k); [|reflexivity].
  destruct (special_value_bad k (entry_val e)); [reflexivity|]. now destruct (decide _ e f).
Qed.

Lemma do_insert_guard s c k e f : o_res (snd (do_insert s c k e f)) = RUnit -> check_read_only k c = None.
Proof. rewrite do_insert_result. destruct (check_read_only k c); [discriminate|reflexivity]. Qed.

Lemma do_insert_abs s c k e f :
  Inv s ->
  Inv (fst (do_insert s c k e f)) /\ meq (abs (fst (do_insert s c k e f))) (point_write c k (ins_upd k e f) (abs s)).
Proof.
  intros HI. pose proof (do_insert_effect s c k e f HI) as H. cbv zeta in H. rewrite do_insert_result in H.
  unfold point_write, guarded, point, ins_upd.
  destruct (check_read_only k c); [exact (same_state _ _ H HI)|].
  destruct (parse_segments k) as [p|]; [|exact (same_state _ _ H HI)].
  destruct (special_value_bad k (entry_val e)); [exact (same_state _ _ H HI)|].
  destruct (decide (abs s p) e f) as [ex ch e'| |] eqn:Ed; [|exact (same_state _ _ H HI)|exact (same_state _ _ H HI)].
  destruct H as (p' & ex' & ch' & e'' & [= <-] & Hd & H). rewrite Ed in Hd. injection Hd as _ _ <-. exact H.
Qed.

Lemma do_delete_result s c k :
  Inv s ->
  o_res (snd (do_delete s c k)) =
  match check_read_only k c with
  | Some code => RErr code
  | None => match parse_segments k with
            | Err code => RErr code
            | Ok p => match abs s p with Some e => RValue (entry_val e) | None => RErr E_NoSuchValue end
            end
  end.
Proof.
  intros (_ & Hc & _). unfold do_delete, abs. destruct (check_read_only k c); [reflexivity|].
  destruct (parse_segments k) as [p|]; [|reflexivity].
  rewrite (proj2 (root_ok_spec _) (cleann_del_at p _ Hc)). cbn [negb]. now destruct (lookup (data s) p).
Qed.

Lemma do_delete_abs s c k :
  Inv s -> Inv (fst (do_delete s c k)) /\ meq (abs (fst (do_delete s c k))) (point_write c k del_upd (abs s)).
Proof.
  intros HI. pose proof (do_delete_effect s c k HI) as H. cbv zeta in H. rewrite (do_delete_result s c k HI) in H.
  unfold point_write, guarded, point, del_upd.
  destruct (check_read_only k c); [exact H|]. destruct (parse_segments k) as [p|]; [|exact H].
  destruct (abs s p) eqn:E; [destruct H as (p' & e' & [= <-] & _ & _ & H); exact H|].
  (* nothing is stored at the path: the model still writes the pruned tree back, which reads the same *)
  destruct H as (HI' & Hm). split; [exact HI'|]. intros q. rewrite Hm. unfold m_put.
  destruct (path_eqb_spec p q) as [<-|]; [exact E|reflexivity].
Qed.

(* with the guard skipped (the load) or not; an ill-formed pattern is refused or not, depending on the tree (F3) *)
Lemma do_pdelete_abs s c sk pat :
  Inv s ->
  Inv (fst (do_pdelete s c sk pat)) /\
  meq (abs (fst (do_pdelete s c sk pat)))
      (match (if sk then None else check_read_only pat c) with
       | Some _ => abs s
       | None => if reach_bad (data s) (kseg_parse pat) then abs s else m_pdel (abs s) (kseg_parse pat)
       end).
Proof.
  intros HI. pose proof HI as (Hw & Hc & Hg & Hr). unfold do_pdelete.
  destruct (if sk then None else check_read_only pat c); [exact (same_state _ _ eq_refl HI)|]. set (p := kseg_parse pat).
  destruct (reach_bad (data s) p); [exact (same_state _ _ eq_refl HI)|].
  rewrite (proj2 (root_ok_spec _) (cleann_delm _ [] p Hc)). cbn [negb]. rewrite delm_matches.
  set (s' := set_data s _ _).
  assert (H : Inv s' /\ meq (abs s') (m_pdel (abs s) p)).
  { split; [now apply Inv_delm|]. intros q. exact (lookup_delm (data s) [] p q Hw). }
  now destruct (notify_deleted s' (collect (data s) [] p)).
Qed.

Definition data_write (o : op) : mstate -> mstate :=
  match o with
  | OSet c k v f => point_write c k (ins_upd k (Plain v) f)
  | OCSet c k v n f => point_write c k (ins_upd k (Cas v n) f)
  | ODelete c k => point_write c k del_upd
  | OPDelete c pat => pdel_write c pat
  | OImport j => fun m => match dec_persisted j with Some other => m_import m (strip_sys s_SYS other) | None => m end
  | _ => fun m => m
  end.

(* left out: session starts and ends (they are runs of such requests), import (F10b), ill-formed patterns (F3) *)
Definition plain_op (o : op) : Prop :=
  match o with
  | OConnected _ | ODisconnected _ | OImport _ => False
  | OPDelete _ pat => wf_pat (kseg_parse pat) = true
  | _ => True
  end.

Lemma step_write s o :
  Inv s -> any_req o -> import_ok o ->
  Inv (fst (step s o)) /\
  (meq (abs (fst (step s o))) (data_write o (abs s)) \/ ~ plain_op o /\ meq (abs (fst (step s o))) (abs s)).
Proof.
  intros HI Ho Hi.
  assert (Hid : data (fst (step s o)) = data s -> Inv (fst (step s o)) /\ meq (abs (fst (step s o))) (abs s)).
  { intros Ed. split; [exact (Inv_ext _ _ Ed HI)|]. rewrite (abs_ext _ _ Ed). intros q. reflexivity. }
  destruct Ho as [Ho|Ho].
  2:{ destruct (Hid (other_data_same s o Ho)) as (HI' & Hm). split; [exact HI'|left]. destruct o; try contradiction; exact Hm. }
  destruct o; try contradiction; try (destruct (Hid eq_refl) as (HI' & Hm); split; [exact HI'|left; exact Hm]);
    cbn [step data_write plain_op].
  - destruct (do_insert_abs s c k (Plain v) force HI). auto.
  - destruct (do_insert_abs s c k (Cas v ver) force HI). auto.
  - destruct (do_delete_abs s c k HI). auto.
  - destruct (do_pdelete_abs s c false p HI) as (HI' & Hm). split; [exact HI'|]. unfold pdel_write, guarded.
    destruct (check_read_only p c); [now left|]. destruct (reach_bad (data s) (kseg_parse p)) eqn:Eb; [right|now left].
    split; [|exact Hm]. intros Hwf. now rewrite (reach_bad_wf _ _ Hwf) in Eb.
  - pose proof (do_import_effect s j HI Hi) as H. cbv zeta in H. destruct (o_res (snd (do_import s j))); try contradiction.
    + destruct H as (other & -> & HI' & Hm). auto.
    + destruct (same_state _ _ H HI). auto.
Qed.

Lemma step_data_write s o :
  Inv s -> plain_op o -> Inv (fst (step s o)) /\ meq (abs (fst (step s o))) (data_write o (abs s)).
Proof.
  intros HI Ho. assert (He : any_req o /\ import_ok o) by (destruct o; try contradiction; split; first [exact I|left; exact I|right; exact I]).
  destruct (step_write s o HI (proj1 He) (proj2 He)) as (HI' & [Hm|(Hn & _)]); [now split|contradiction].
Qed.
