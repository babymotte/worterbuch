(* C08 -- Clients cannot alter or fake the server's $SYS information.
   Statements only; proofs in Proofs/SysGuard.v. *)
From Coq Require Import List.
Import ListNotations.
From WB Require Import Base.Str Base.Json Model.Key Model.Consts Model.Store Model.Entry Model.Core Model.Rest Spec.MapSpec
  Proofs.CoreFacts Proofs.LenFacts Proofs.C01Proof Proofs.SubsFacts Proofs.C03Proof Proofs.StreamProof Proofs.SysGuard Proofs.RestFacts Proofs.LockHistory Proofs.SessionEnd Proofs.SessionTrace Proofs.SysKeep Model.Codec Model.Auth Model.Session Model.RestWorld Proofs.WorldCore Proofs.WorldRest Proofs.WorldSys.

(* for a key whose first segment is literally $SYS, an ordinary client passes the guard exactly
   for $SYS/clients/<own id>/{graveGoods,lastWill,clientName}[/...]; anything else is ReadOnlyKey *)
Theorem C08_guard_literal :
  forall key c, c <> 0 -> key <> [] ->
    match split slash key with
    | p0 :: rest =>
        if str_eqb p0 s_SYS then
          (check_read_only key c = None <->
           exists p3 more, rest = s_clients :: client_str c :: p3 :: more /\
                           (p3 = s_graveGoods \/ p3 = s_lastWill \/ p3 = s_clientName))
          /\ (check_read_only key c <> None -> check_read_only key c = Some E_ReadOnlyKey)
        else check_read_only key c = None
    | [] => True
    end.
Proof. exact guard_literal. Qed.
Print Assumptions C08_guard_literal.

(* a request the guard refuses (set, cset, delete, pdelete, spub-init) changes nothing at all *)
Theorem C08_refused_is_identity :
  forall s c key code, check_read_only key c = Some code ->
    (forall e f, do_insert s c key e f = (s, out_res (RErr code))) /\
    do_delete s c key = (s, out_res (RErr code)) /\
    do_pdelete s c false key = (s, out_res (RErr code)) /\
    (forall t, do_spub_init s c t key = (s, out_res (RErr code))).
Proof. exact refused_is_identity. Qed.
Print Assumptions C08_refused_is_identity.

(* known finding F4: the guard looks at the literal first segment, so a client's pdelete (or
   grave good) with a wildcard first segment removes protected keys *)
Definition sys_sentinel : str := s_SYS ++ [47; 115].          (* $SYS/s *)
Theorem C08_pdelete_wildcard_refuted :
  exists s pat, check_read_only pat 1 = None /\
    do_get s sys_sentinel = RValue JNull /\
    do_get (fst (do_pdelete s 1 false pat)) sys_sentinel = RErr E_NoSuchValue.
Proof.
  exists (fst (do_insert init 0 sys_sentinel (Plain JNull) true)), [35]. vm_compute. auto.
Qed.
Print Assumptions C08_pdelete_wildcard_refuted.

(* known finding F5: publish has no guard; a subscriber of a protected key sees the client's value *)
Theorem C08_publish_refuted :
  exists s v, o_events (snd (do_publish s sys_sentinel v)) = [(0, EValue v)] /\ v = JStr [102].
Proof.
  exists (fst (do_subscribe init 0 1 sys_sentinel false true)), (JStr [102]). vm_compute. auto.
Qed.
Print Assumptions C08_publish_refuted.

(* as a statement about states (Proofs/SysKeep.v): whatever an ordinary client asks for -- set, cset, delete with any key;
   pdelete with a pattern whose first segment is literal; import; publish, publish streams, subscriptions, locks --, every
   value under $SYS other than that client's own graveGoods / lastWill / clientName entries reads afterwards as before;
   and along every history of such requests of any number of clients a value under $SYS that is nobody's own entry is
   never touched.  (First segment a wildcard: F4; what publish shows subscribers: F5; session starts and ends are the
   server's own bookkeeping -- what a session end does for the client is a run of such requests: C07.) *)
Theorem C08_client_keeps_sys :
  forall s c o q, Inv s -> c <> 0%N -> client_req c o -> ~ own_entry c q ->
    abs (fst (step s o)) (s_SYS :: q) = abs s (s_SYS :: q).
Proof. exact client_keeps_sys. Qed.
Print Assumptions C08_client_keeps_sys.

Theorem C08_clients_keep_sys :
  forall os s q, Inv s -> LenInv s -> client_hist os -> no_crash_run s (map snd os) ->
    (forall c, In c (map fst os) -> ~ own_entry c q) ->
    abs (final s (map snd os)) (s_SYS :: q) = abs s (s_SYS :: q).
Proof. exact clients_keep_sys. Qed.
Print Assumptions C08_clients_keep_sys.

(* "... or through its grave goods and last will": when a session ends, apart from the server's own bookkeeping -- the
   client count $SYS/clients and the subtree $SYS/clients/<id> of the ending client -- every value under $SYS reads
   afterwards as before, whatever grave goods (with a literal first segment: F4) and last wills it had registered *)
Theorem C08_session_end_keeps_sys :
  forall s c q, Inv s -> LenInv s -> Forall literal_first (gg_of s c) ->
    is_crash (snd (do_disconnected s c)) = false ->
    q <> [s_clients] -> (forall r, q <> s_clients :: client_str c :: r) ->
    abs (fst (do_disconnected s c)) (s_SYS :: q) = abs s (s_SYS :: q).
Proof. exact session_end_keeps_sys. Qed.
Print Assumptions C08_session_end_keeps_sys.

(* at the level of the sockets and the REST front end (Proofs/WorldSys.v): whatever arrives, in whatever order -- lines of
   every kind on any number of sessions, connections opening and closing with their grave goods and last wills, REST
   requests of every kind --, a value the server keeps under $SYS outside the per-client bookkeeping ([server_info]: not
   $SYS/clients or below; $SYS/version, $SYS/license, ...) reads afterwards as before, as long as no pattern with a
   wildcard in its first segment is involved ([lit_hist]: known finding F4) *)
Theorem C08_mixed_keeps_info :
  forall xs w q, Inv (w_core w) -> LenInv (w_core w) -> LH (w_core w) -> Forall wev_ok xs -> lit_hist w xs -> server_info q ->
    abs (w_core (wfinal' w xs)) (s_SYS :: q) = abs (w_core w) (s_SYS :: q).
Proof. exact mixed_keeps_info. Qed.
Print Assumptions C08_mixed_keeps_info.

Example C08_mixed_nonvacuous :
  let xs := [WS (SOpen 0); WS (SMsg 0 (MSet 1 [36;83;89;83;47;118] JNull)); WR TNone (RSet [36;83;89;83;47;118] (JNum [49]));
             WR TNone (RPDelete [36;83;89;83;47;35]); WS (SMsg 0 (MSet 2 (topic [s_SYS; s_clients; client_str 1; s_graveGoods]) (JArr [JStr [97;47;35]])));
             WS (SClose 0)]%N in
  (Forall wev_ok xs /\ lit_hist (world_init false) xs) /\ server_info [[118]%N].
Proof. exact mixed_info_demo. Qed.

Example C08_clients_keep_sys_nonvacuous :
  let s0 := fst (step init (OSet 0 [36;83;89;83;47;118]%N (JStr [120]%N) true)) in
  let os := [(1, OSet 1 [36;83;89;83;47;118] (JStr [101]) false); (1, ODelete 1 [36;83;89;83;47;118]); (2, OPDelete 2 [36;83;89;83;47;35]);
             (1, OSet 1 (topic [s_SYS; s_clients; client_str 1; s_graveGoods]) (JArr []) false); (2, OSet 2 [97] JNull false)]%N in
  (client_hist os /\ no_crash_run s0 (map snd os)) /\
  abs (final s0 (map snd os)) [s_SYS; [118]%N] = Some (Plain (JStr [120]%N)) /\
  abs (final s0 (map snd os)) [s_SYS; s_clients; client_str 1%N; s_graveGoods] = Some (Plain (JArr [])).
Proof. exact clients_keep_sys_demo. Qed.

(* an import -- the one request that carries a whole tree -- never reaches $SYS: whatever the tree contains, every path
   whose first segment is $SYS reads afterwards as before (Store::merge strips $SYS: repair of F29), also through the REST
   import endpoint, whatever the token allows *)
Theorem C08_import_keeps_sys :
  forall s j q, Inv s -> import_ok (OImport j) -> abs (fst (do_import s j)) (s_SYS :: q) = abs s (s_SYS :: q).
Proof. exact import_keeps_sys. Qed.
Print Assumptions C08_import_keeps_sys.

Theorem C08_rest_import_keeps_sys :
  forall auth tok s j q, Inv s -> import_ok (OImport j) ->
    abs (fst (fst (rest_handle auth tok s (RImport j)))) (s_SYS :: q) = abs s (s_SYS :: q).
Proof. exact rest_import_keeps_sys. Qed.
Print Assumptions C08_rest_import_keeps_sys.

Example C08_import_nonvacuous :
  let s0 := fst (step init (OSet 0 [36;83;89;83;47;118]%N (JStr [120]%N) true)) in
  let j := JObj [(s_data, JObj [(s_t, JObj [(s_SYS, JObj [(s_t, JObj [([118]%N, JObj [(s_v, JStr [101]%N)])])]); ([117]%N, JObj [(s_v, JNum [49]%N)])])])] in
  let s1 := fst (fst (rest_handle false TNone s0 (RImport j))) in
  abs s1 [s_SYS; [118]%N] = Some (Plain (JStr [120]%N)) /\ abs s1 [[117]%N] = Some (Plain (JNum [49]%N)).
Proof. exact import_keeps_sys_demo. Qed.

Example C08_nonvacuous :
  check_read_only (s_SYS ++ [47] ++ s_clients) 1 = Some E_ReadOnlyKey /\
  check_read_only (topic [s_SYS; s_clients; client_str 1; s_graveGoods]) 1 = None /\
  check_read_only (topic [s_SYS; s_clients; client_str 2; s_graveGoods]) 1 = Some E_ReadOnlyKey.
Proof. vm_compute. auto. Qed.
