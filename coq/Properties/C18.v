(* C18 -- Incremental (ReDB) persistence recovers a prefix of what was applied.
   Statements only.  Model: Model/Redb.v (persistence/redb/mod.rs, the queueing in persistence/mod.rs and worterbuch.rs).
   redb's own guarantee -- a committed write transaction is atomic and durable -- is trusted.
   The table follows the store request by request (C18_table_tracks_store: set / cset / delete / pdelete histories,
   any keys, accepted or refused; C18_table_tracks_any (Proofs/RedbSession.v): histories of client requests of every
   kind except import, sessions starting and ending with their grave goods and last wills included); so do the two
   registration tables (C18_all_tables_follow_the_store, Proofs/RedbRegs.v: the grave-goods / last-will entry of every
   client is what its registration key holds, after registering, re-registering, withdrawing by delete or pattern delete
   -- F28 --, burials that reach other clients' registrations -- F4 --, and session ends).  The load
   (C18_recover_is_a_function_of_the_store, Proofs/RedbRecover.v): what a start makes of the database after any such
   history is the user part of the store at that point, CAS versions as 1 (F13), with the registered grave goods buried
   and the registered last wills written, clients in id order.  PARTIAL: imports are in the executable model and
   compared with the real server, not proved; cuts INSIDE the actions of one request (a session end queues several) are
   covered by C18_disk_is_prefix and the comparison, not by the load theorem. *)
From Coq Require Import List.
Import ListNotations.
From WB Require Import Base.Str Base.Json Model.Key Model.Consts Model.Store Model.Entry Model.Core Model.Persist Model.Redb Spec.MapSpec
  Proofs.RedbFacts Proofs.CoreFacts Proofs.LenFacts Proofs.StreamProof Proofs.SessionEnd Proofs.SessionTrace Proofs.RedbTrack Proofs.RedbSession Proofs.RedbRegs Proofs.RedbRecover.

(* every cut the writer can produce: whatever the scheduler lets each wake-up find in the channel, the disk holds the
   result of a prefix of the queued single-key changes, in order; the rest is still queued, in order *)
Theorem C18_disk_is_prefix :
  forall avails t q,
  exists j, (j <= length q)%nat /\ fst (wakes avails (t, q)) = apply_all t (firstn j q) /\ snd (wakes avails (t, q)) = skipn j q.
Proof. exact disk_is_prefix. Qed.
Print Assumptions C18_disk_is_prefix.

Theorem C18_clean_stop_is_all :
  forall avails t q, snd (wakes avails (t, q)) = [] -> fst (wakes avails (t, q)) = apply_all t q.
Proof. exact clean_stop_is_all. Qed.
Print Assumptions C18_clean_stop_is_all.

Theorem C18_writer_progress :
  forall n t a q, (length (snd (wake n (t, a :: q))) < length (a :: q))%nat.
Proof. exact wake_progress. Qed.
Print Assumptions C18_writer_progress.

(* the rows follow the store: after the queued actions of any history of client writes, the row of every user key is
   the stored entry (row_of: with the version the request carried, F13) and keys without a value have no row *)
Theorem C18_table_tracks_store :
  forall ws s t, Inv s -> tracks s t -> wnocrash s ws ->
  let '(s', acts) := wrun s ws in Inv s' /\ tracks s' (apply_all t acts).
Proof. exact table_tracks_store. Qed.
Print Assumptions C18_table_tracks_store.

Theorem C18_tracks_init : tracks init t_empty.
Proof. exact tracks_init. Qed.
Print Assumptions C18_tracks_init.

(* the same over histories of requests of every kind except import: sessions start and end (the burial of the grave
   goods and the last will queue a delete resp. an update for every user key they change), subscriptions, locks,
   publishes in between; [redb_op]: client writes come from clients (not the internal id) with force = false *)
Theorem C18_table_tracks_any :
  forall os s t, Inv s -> LenInv s -> tracks s t -> abs s [s_SYS] = None -> Forall redb_op os -> no_crash_run s os ->
    Inv (final s os) /\ tracks (final s os) (apply_all t (any_actions s os)).
Proof. exact table_tracks_any. Qed.
Print Assumptions C18_table_tracks_any.

Theorem C18_table_tracks_any_from_start :
  forall os, Forall redb_op os -> no_crash_run init os ->
    tracks (final init os) (apply_all t_empty (any_actions init os)).
Proof. exact table_tracks_any_init. Qed.
Print Assumptions C18_table_tracks_any_from_start.

(* one session end: the state afterwards keeps, loses or overwrites with a plain value every entry (nothing else), and
   the queued actions bring the rows along *)
Theorem C18_session_end_tracks :
  forall s t c, Inv s -> LenInv s -> tracks s t -> abs s [s_SYS] = None ->
    o_res (snd (step s (ODisconnected c))) = RUnit ->
    let s' := fst (step s (ODisconnected c)) in
    Inv s' /\ tracks s' (apply_all t (actions_of s (ODisconnected c))) /\ abs s' [s_SYS] = None.
Proof. exact track_session_end. Qed.
Print Assumptions C18_session_end_tracks.

(* all three tables.  [RegTracks s t]: for every client id 1..255 the entry of the grave-goods table is what the key
   $SYS/clients/<id>/graveGoods decodes to (none if the key is absent or null), the same for the last wills.
   [reg_hist]: writes and deletes come from clients 1..255 (the id space of the model's client_str), no import, and at a
   session end the ending client's last will does not write under $SYS/ (a will that re-creates its own registration
   key leaves a registration in the store which no table entry backs: the tables are cleared after the will) *)
Theorem C18_all_tables_follow_the_store :
  forall os, reg_hist init os -> no_crash_run init os ->
    tracks (final init os) (apply_all t_empty (any_actions init os)) /\
    RegTracks (final init os) (apply_all t_empty (any_actions init os)).
Proof. exact tables_track_any_init. Qed.
Print Assumptions C18_all_tables_follow_the_store.

Theorem C18_all_tables_follow_the_store_from :
  forall os s t, Inv s -> LenInv s -> tracks s t -> RegTracks s t -> abs s [s_SYS] = None -> reg_hist s os -> no_crash_run s os ->
    Inv (final s os) /\ tracks (final s os) (apply_all t (any_actions s os)) /\ RegTracks (final s os) (apply_all t (any_actions s os)).
Proof. exact tables_track_any. Qed.
Print Assumptions C18_all_tables_follow_the_store_from.

(* one request: whatever it is (except import), accepted or refused *)
Theorem C18_registration_tables_step :
  forall s t o, Inv s -> LenInv s -> RegTracks s t -> reg_op s o -> o_res (snd (step s o)) <> RCrash ->
    RegTracks (fst (step s o)) (apply_all t (actions_of s o)).
Proof. exact reg_track_step. Qed.
Print Assumptions C18_registration_tables_step.

(* the hypotheses hold along a history that registers, withdraws (F28), buries another client's registration through a
   wildcard-first pattern (F4) and ends a session; and the tables say what the theorem says *)
Example C18_registrations_nonvacuous :
  (reg_hist init demo_hist /\ no_crash_run init demo_hist) /\
  let T := apply_all t_empty (any_actions init demo_hist) in
  let T4 := apply_all t_empty (any_actions init (firstn 4 demo_hist)) in
  c_get 1 (t_gg T4) = Some [[120;47;35]%N] /\ c_get 1 (t_lw T4) = Some [([119]%N, JNum [49]%N)] /\
  c_get 1 (t_gg T) = None /\ c_get 1 (t_lw T) = None /\ c_get 2 (t_gg T) = None /\
  gg_store (final init demo_hist) 1 = None /\ lw_store (final init demo_hist) 1 = None.
Proof. split; [exact demo_hist_hyps|exact demo_hist_ok]. Qed.

(* the load.  [m_user m]: the entries of m outside the root $SYS, a CAS entry with version 1 (F13); [m_bury]: one
   pattern deletion (the relation of pget / pdelete) per pattern; [m_wills]: one plain set per last-will entry whose key
   is a valid key; [registered_pats s] / [registered_wills s]: what the keys $SYS/clients/<id>/graveGoods resp. lastWill
   of the clients 1..255 decode to in s, in id order.  Hypothesis: the registered patterns have `#` only at the end. *)
Theorem C18_recover_is_a_function_of_the_store :
  forall os, reg_hist init os -> no_crash_run init os ->
    let s := final init os in
    Forall (fun g => wf_pat (kseg_parse g) = true) (registered_pats s) ->
    meq (abs (recover (apply_all t_empty (any_actions init os))))
        (m_wills (m_bury (m_user (abs s)) (registered_pats s)) (registered_wills s)).
Proof. exact recover_after_history. Qed.
Print Assumptions C18_recover_is_a_function_of_the_store.

(* ... from tables that follow a store, whatever the history behind them *)
Theorem C18_recover_spec :
  forall s t, Inv s -> tracks s t -> RowsOK (t_v2 t) -> abs s [s_SYS] = None ->
    Forall (fun g => wf_pat (kseg_parse g) = true) (all_pats t) ->
    Inv (recover t) /\ meq (abs (recover t)) (m_wills (m_bury (m_user (abs s)) (all_pats t)) (all_wills t)).
Proof. exact recover_spec. Qed.
Print Assumptions C18_recover_spec.

(* the invariants the load theorem rests on, along every history: rows only for valid keys outside $SYS/ and one per
   key; registration tables strictly ordered by client id; no request creates the empty key *)
Theorem C18_history_invariants :
  forall os s t, Inv s -> LenInv s -> tracks s t -> RegTracks s t -> TabOK t -> abs s [s_SYS] = None -> abs s [[]] = None ->
    reg_hist s os -> no_crash_run s os ->
    let s' := final s os in let t' := apply_all t (any_actions s os) in
    Inv s' /\ tracks s' t' /\ RegTracks s' t' /\ TabOK t' /\ abs s' [s_SYS] = None.
Proof. exact history_invariants. Qed.
Print Assumptions C18_history_invariants.

Example C18_recover_nonvacuous :
  (reg_hist init demo_recover /\ no_crash_run init demo_recover /\
   Forall (fun g => wf_pat (kseg_parse g) = true) (registered_pats (final init demo_recover))) /\
  let r := recover (apply_all t_empty (any_actions init demo_recover)) in
  abs (final init demo_recover) [[120];[97]]%N = Some (Plain (JNum [49]%N)) /\ abs (final init demo_recover) [[121]]%N = Some (Cas (JNum [51]%N) 2%N) /\
  abs r [[120];[97]]%N = None /\ abs r [[121]]%N = Some (Cas (JNum [51]%N) 1%N) /\ abs r [[119]]%N = Some (Plain (JNum [49]%N)) /\
  abs r (gg_path 1%N) = None.
Proof. exact demo_recover_ok. Qed.

Example C18_sessions_nonvacuous :
  let gg1 := topic [s_SYS; s_clients; client_str 1; s_graveGoods] in
  let lw1 := topic [s_SYS; s_clients; client_str 1; s_lastWill] in
  let os := [OConnected 1; OSet 1 gg1 (JArr [JStr [103;47;35]]) false; OSet 1 lw1 (JArr [JArr [JStr [119]; JNum [49]]]) false;
             OSet 2 [103;47;120] JNull false; OCSet 2 [119] JNull 0 false; OSet 2 [107] JNull false; ODisconnected 1] in
  Forall redb_op os /\ no_crash_run init os /\
  t_v2 (apply_all t_empty (any_actions init os)) = [([119], Plain (JNum [49])); ([107], Plain JNull)].
Proof.
  cbv zeta. split; [repeat (apply Forall_cons; [cbn; first [exact I|split; [reflexivity|discriminate]]|]); apply Forall_nil|].
  split; [vm_compute; repeat split; discriminate|vm_compute; reflexivity].
Qed.

(* known finding F13 *)
Theorem C18_version_refuted :
  let os := [OCSet 1 [107] (JBool true) 0 false; OCSet 1 [107] (JBool false) 1 false] in
  let '(s, acts) := run_actions init os in
  lookup (data s) [[107]] = Some (Cas (JBool false) 2) /\
  lookup (data (recover (apply_all t_empty acts))) [[107]] = Some (Cas (JBool false) 1).
Proof. exact cas_version_refuted. Qed.
Print Assumptions C18_version_refuted.

Example C18_nonvacuous :
  let q := [AUpd [97] (Plain JNull); ADel [98]; AGG 1 (Some [[99]]); AUpd [100] (Plain JNull); AUpd [101] (Plain JNull); AClear; AUpd [102] (Plain JNull)] in
  (* three wake-ups that find 1, 0 and 5 further actions in the channel *)
  wakes [1; 0; 5]%nat (t_empty, q) =
  (apply_all t_empty (firstn 5 q), [AClear; AUpd [102] (Plain JNull)]).
Proof. vm_compute. reflexivity. Qed.
